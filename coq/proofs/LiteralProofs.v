(* C10: order-sensitive facts of the regenerated rule table, constant typing. *)
From Coq Require Import String.
From Coq Require Import List NArith Bool Arith Lia.
Import ListNotations.
From PV Require Import Regex Base UnicodeTables LexTables PyRepr Lexer ParserTables NodeModel ParserBase ParserDecl.

Fixpoint rule_index (name: str) (rs: list rule) (i: nat) : option nat :=
  match rs with
  | [] => None
  | r :: rs' => if str_eqb (rname r) name then Some i else rule_index name rs' (S i)
  end.
Definition before (a b: String.string) : bool :=
  match rule_index (s2l a) regex_rules 0, rule_index (s2l b) regex_rules 0 with
  | Some i, Some j => Nat.ltb i j
  | _, _ => false
  end.
Arguments before (a b)%string.

(* the table order that the classification relies on (first matching alternative wins) *)
Theorem rule_order :
  before "BAD_STRING_LITERAL" "STRING_LITERAL" = true /\
  before "BAD_STRING_LITERAL" "WSTRING_LITERAL" = true /\
  before "HEX_FLOAT_CONST" "INT_CONST_HEX" = true /\
  before "FLOAT_CONST" "INT_CONST_OCT" = true /\
  before "FLOAT_CONST" "INT_CONST_DEC" = true /\
  before "INT_CONST_HEX" "INT_CONST_OCT" = true /\
  before "INT_CONST_BIN" "INT_CONST_OCT" = true /\
  before "BAD_CONST_OCT" "INT_CONST_OCT" = true /\
  before "INT_CONST_OCT" "INT_CONST_DEC" = true /\
  before "INT_CONST_CHAR" "CHAR_CONST" = true /\
  before "CHAR_CONST" "UNMATCHED_QUOTE" = true /\
  before "UNMATCHED_QUOTE" "BAD_CHAR_CONST" = true /\
  before "WSTRING_LITERAL" "ID" = true /\
  before "WCHAR_CONST" "ID" = true.
Proof. repeat split; vm_compute; reflexivity. Qed.

(* every error rule has a message (or is BAD_CHAR_CONST, whose message is built from the value):
   the `assert msg is not None` of _match_token cannot fire *)
Theorem error_rules_have_messages :
  forallb (fun r => match ract r with
                    | A_ERROR None => str_eqb (rname r) name_BAD_CHAR_CONST
                    | _ => true end) regex_rules = true.
Proof. vm_compute. reflexivity. Qed.

Lemma no_crash_rule : forall r, In r regex_rules -> ract r = A_ERROR None -> str_eqb (rname r) name_BAD_CHAR_CONST = false -> False.
Proof.
  intros r Hr Ha Hn. pose proof (proj1 (forallb_forall _ _) error_rules_have_messages r Hr) as T. cbv beta in T.
  rewrite Ha, Hn in T. discriminate.
Qed.

(* a multi-character constant is an int, whatever its letters *)
Theorem multichar_is_int : forall v: str, int_const_type true v = Some (s2l "int").
Proof. reflexivity. Qed.

Lemma count_none : forall (f: N -> bool) (x: str), Forall (fun c => f c = false) x -> count_if f x = 0%nat.
Proof. intros f x H. unfold count_if. induction H as [|c x Hc Hx IH]; cbn [filter]; [reflexivity|]. rewrite Hc. exact IH. Qed.

Theorem no_suffix_is_int : forall v: str,
  forallb (fun c => negb (is_lL c) && negb (is_uU c)) (last_n 3 v) = true ->
  int_const_type false v = Some (s2l "int").
Proof.
  intros v H. unfold int_const_type. rewrite forallb_forall in H.
  rewrite !count_none; [reflexivity|..]; apply Forall_forall; intros c Hc; specialize (H c Hc);
    apply andb_true_iff in H; destruct H as [Hl Hu]; apply negb_true_iff in Hl, Hu; [exact Hl|rewrite Hu; apply andb_false_r].
Qed.

Example suffix_typing :
  int_const_type false (s2l "10u") = Some (s2l "unsigned int") /\
  int_const_type false (s2l "10UL") = Some (s2l "unsigned long int") /\
  int_const_type false (s2l "0x1Fll") = Some (s2l "long long int") /\
  int_const_type false (s2l "7LLU") = Some (s2l "unsigned long long int") /\
  int_const_type false (s2l "0b1l") = Some (s2l "long int") /\
  float_const_type (s2l "1.5f") = Some (s2l "float") /\
  float_const_type (s2l "2e3L") = Some (s2l "long double") /\
  float_const_type (s2l "0x1p3") = Some (s2l "double").
Proof. repeat split; vm_compute; reflexivity. Qed.
