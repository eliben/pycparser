(* C02 core: the precedence-climbing loops of _parse_binary_expression are sound
   for the stratified C grammar, for every operator sequence of any length.
   [climb]/[inner] mirror the two nested loops with operands opaque; the
   component is tied to the code at its own entry point by correspondence
   (harness: CParser._parse_binary_expression on `a0 op1 a1 ...`). *)
From Coq Require Import List Arith Lia Bool.
Import ListNotations.

Section Climb.
Variable atom op : Type.
Variable prec : op -> nat.
Inductive tree := Leaf (a: atom) | Bin (o: op) (l r: tree).
Definition rest := list (op * atom).

Fixpoint climb (fuel: nat) (minp: nat) (lhs: tree) (r: rest) : option (tree * rest) :=
  match fuel with O => None | S f =>
   match r with
   | [] => Some (lhs, [])
   | (o,a) :: r1 =>
       if prec o <? minp then Some (lhs, r)
       else match inner f (prec o) (Leaf a) r1 with
            | None => None
            | Some (rhs, r2) => climb f minp (Bin o lhs rhs) r2
            end
   end end
with inner (fuel: nat) (p: nat) (rhs: tree) (r: rest) : option (tree * rest) :=
  match fuel with O => None | S f =>
   match r with
   | [] => Some (rhs, [])
   | (o2,_) :: _ =>
       if p <? prec o2 then
         match climb f (prec o2) rhs r with
         | None => None
         | Some (rhs', r') => inner f p rhs' r'
         end
       else Some (rhs, r)
   end end.

(* The stratified grammar: level-p expression over a head operand h and a tail l
   (C99 6.5.5-6.5.14: level p is  level-(p+1) | level-p op_p level-(p+1)). *)
Inductive D : nat -> tree -> rest -> tree -> Prop :=
| D_atom : forall p h, D p h [] h
| D_up : forall p h l t, D (S p) h l t -> D p h l t
| D_bin : forall p h l1 o a l2 t1 t2, prec o = p -> D p h l1 t1 -> D (S p) (Leaf a) l2 t2 ->
          D p h (l1 ++ (o,a) :: l2) (Bin o t1 t2).

Definition head_le (q: nat) (l: rest) : Prop :=
  match l with [] => True | (o,_) :: _ => prec o <= q end.
Definition head_lt (q: nat) (l: rest) : Prop :=
  match l with [] => True | (o,_) :: _ => prec o < q end.

Lemma D_down : forall q p h l t, D q h l t -> p <= q -> D p h l t.
Proof.
  intros q p h l t HD Hle. induction Hle as [|q' Hle IH].
  - exact HD.
  - apply IH. apply D_up. exact HD.
Qed.

Lemma D_nil : forall p h l t, D p h l t -> l = [] -> t = h.
Proof.
  intros p h l t HD. induction HD as [p h0 | p h0 l t HD IH | p h0 la o a lb ta tb Hp HDa IHa HDb IHb]; intros Hl.
  - reflexivity.
  - auto.
  - destruct la; discriminate.
Qed.

Lemma D_all_ge : forall p h l t, D p h l t -> Forall (fun oa => p <= prec (fst oa)) l.
Proof.
  intros p h l t HD. induction HD as [p h0 | p h0 l t HD IH | p h0 la o a lb ta tb Hp HDa IHa HDb IHb].
  - constructor.
  - eapply Forall_impl; [|exact IH]. intros x Hx. cbn in Hx. lia.
  - apply Forall_app. split; [exact IHa|]. constructor; [cbn; lia|].
    eapply Forall_impl; [|exact IHb]. intros x Hx. cbn in Hx. lia.
Qed.

Lemma D_head_ge : forall p h l t, D p h l t ->
  match l with [] => True | (o,_) :: _ => p <= prec o end.
Proof. intros p h l t HD. apply D_all_ge in HD. destruct HD as [|[o a] l Hx _]; [exact I|exact Hx]. Qed.

Lemma compose : forall p' h' l2 t, D p' h' l2 t ->
  forall q h l1, D q h l1 h' -> p' <= q -> head_le q l2 -> D p' h (l1 ++ l2) t.
Proof.
  intros p' h' l2 t HD. induction HD as [p h0 | p h0 l t HD IH | p h0 la o a lb ta tb Hp HDa IHa HDb IHb];
    intros q h l1 H1 Hle Hhd.
  - rewrite app_nil_r. eapply D_down; eauto.
  - destruct (Nat.eq_dec p q) as [->|Hne].
    + pose proof (D_head_ge _ _ _ _ HD) as Hge.
      destruct l as [|[o a] l].
      * pose proof (D_nil _ _ _ _ HD eq_refl) as ->. rewrite app_nil_r. exact H1.
      * simpl in Hhd. lia.
    + apply D_up. eapply IH; eauto. lia.
  - rewrite app_assoc. apply D_bin; auto.
    destruct la as [|x la].
    + rewrite app_nil_r. pose proof (D_nil _ _ _ _ HDa eq_refl) as ->.
      eapply D_down; eauto.
    + eapply IHa; eauto.
Qed.

(* one round of the outer loop, read in the grammar: lhs o rhs, then whatever the loop goes on to read *)
Lemma D_op : forall m h o a l1 rhs l2 t, m <= prec o -> D (S (prec o)) (Leaf a) l1 rhs ->
  D m (Bin o h rhs) l2 t -> head_le (prec o) l2 -> D m h (((o,a) :: l1) ++ l2) t.
Proof.
  intros m h o a l1 rhs l2 t Hm H1 H2 Hh. apply (compose _ _ _ _ H2 (prec o)); [|exact Hm|exact Hh].
  apply (D_bin (prec o) h [] o a l1 h rhs); [reflexivity|apply D_atom|exact H1].
Qed.

Definition sound_climb (f: nat) : Prop := forall m lhs r t r',
  climb f m lhs r = Some (t, r') -> exists l, r = l ++ r' /\ D m lhs l t /\ head_lt m r'.
Definition sound_inner (f: nat) : Prop := forall p rhs r t r',
  inner f p rhs r = Some (t, r') -> exists l, r = l ++ r' /\ D (S p) rhs l t /\ head_le p r'.

Lemma sound : forall f, sound_climb f /\ sound_inner f.
Proof.
  induction f as [|f [IHc IHi]]; split.
  - intros m lhs r t r' H; discriminate.
  - intros p rhs r t r' H; discriminate.
  - intros m lhs r t r' H. cbn [climb] in H.
    destruct r as [|[o a] r1]; [inversion H; subst; exists []; repeat split; constructor|].
    destruct (Nat.ltb_spec (prec o) m) as [Hlt|Hlt]; [inversion H; subst; exists []; repeat split; [constructor|exact Hlt]|].
    destruct (inner f (prec o) (Leaf a) r1) as [[rhs r2]|] eqn:Hin; [|discriminate].
    apply IHi in Hin. destruct Hin as (l1 & -> & HD1 & Hhd1).
    apply IHc in H. destruct H as (l2 & -> & HD2 & Hhd2).
    exists (((o,a) :: l1) ++ l2). split; [simpl; now rewrite app_assoc|]. split; [|exact Hhd2].
    apply (D_op _ _ _ _ _ _ _ _ Hlt HD1 HD2). destruct l2 as [|[o2 a2] l2]; [exact I|exact Hhd1].
  - intros p rhs r t r' H. cbn [inner] in H.
    destruct r as [|[o2 a2] r1]; [inversion H; subst; exists []; repeat split; constructor|].
    destruct (Nat.ltb_spec p (prec o2)) as [Hlt|Hlt]; [|inversion H; subst; exists []; repeat split; [constructor|exact Hlt]].
    destruct (climb f (prec o2) rhs ((o2,a2)::r1)) as [[rhs' rr]|] eqn:Hc; [|discriminate].
    apply IHc in Hc. destruct Hc as (l1 & Hr & HD1 & Hhd1).
    apply IHi in H. destruct H as (l2 & -> & HD2 & Hhd2).
    exists (l1 ++ l2). split; [rewrite Hr; now rewrite app_assoc|]. split; [|exact Hhd2].
    eapply compose; [exact HD2|exact HD1|lia|].
    destruct l2 as [|[o3 a3] l2]; [exact I|]. simpl in *. lia.
Qed.

Lemma climb_sound_at : forall fuel m h r t, climb fuel m h r = Some (t, []) -> D m h r t.
Proof.
  intros fuel m h r t H. destruct (proj1 (sound fuel) _ _ _ _ _ H) as (l & -> & HD & _).
  rewrite app_nil_r. exact HD.
Qed.

(* the whole operator sequence, entered as _parse_binary_expression() does (min_prec = 0) *)
Theorem climb_sound : forall fuel a0 r t,
  climb fuel 0 (Leaf a0) r = Some (t, []) -> D 0 (Leaf a0) r t.
Proof. intros fuel a0. apply climb_sound_at. Qed.

Lemma split_unique : forall (Q: op * atom -> Prop) l1 x l2 l1' x' l2',
  l1 ++ x :: l2 = l1' ++ x' :: l2' -> Q x -> Q x' -> Forall (fun y => ~ Q y) l2 -> Forall (fun y => ~ Q y) l2' ->
  l1 = l1' /\ x = x' /\ l2 = l2'.
Proof.
  intros Q. induction l1 as [|y l1 IH]; intros x l2 l1' x' l2' E Qx Qx' F2 F2'.
  - destruct l1' as [|y' l1']; cbn in E.
    + injection E as -> ->. auto.
    + injection E as -> ->. exfalso. rewrite Forall_forall in F2. apply (F2 x'); [apply in_or_app; right; left; reflexivity|exact Qx'].
  - destruct l1' as [|y' l1']; cbn in E.
    + injection E as -> <-. exfalso. rewrite Forall_forall in F2'. apply (F2' x); [apply in_or_app; right; left; reflexivity|exact Qx].
    + injection E as -> E. destruct (IH _ _ _ _ _ E Qx Qx' F2 F2') as (-> & -> & ->). auto.
Qed.

Theorem D_unique : forall p h l t1, D p h l t1 -> forall t2, D p h l t2 -> t1 = t2.
Proof.
  intros p h l t1 HD. induction HD as [p h0 | p h0 l t HD IH | p h0 la o a lb ta tb Hp HDa IHa HDb IHb]; intros t2 H2.
  - symmetry. eapply D_nil; [exact H2|reflexivity].
  - inversion H2 as [p' h' | p' h' l' t' H2' | p' h' la' o' a' lb' ta' tb' Hp' HDa' HDb']; subst.
    + eapply D_nil; [exact HD|reflexivity].
    + apply IH. exact H2'.
    + apply D_all_ge, Forall_app, proj2, Forall_inv in HD. cbn in HD. lia.
  - inversion H2 as [p' h' | p' h' l' t' H2' | p' h' la' o' a' lb' ta' tb' Hp' HDa' HDb' El]; subst.
    + destruct la; discriminate.
    + apply D_all_ge, Forall_app, proj2, Forall_inv in H2'. cbn in H2'. lia.
    + assert (A: forall h1 l t, D (S (prec o)) h1 l t -> Forall (fun y => ~ prec (fst y) = prec o) l).
      { intros h1 l t HD. eapply Forall_impl; [|exact (D_all_ge _ _ _ _ HD)]. cbn. intros x Hx Hq. lia. }
      match goal with El: _ ++ _ = _ |- _ =>
        destruct (split_unique (fun oa => prec (fst oa) = prec o) _ _ _ _ _ _ El Hp' eq_refl (A _ _ _ HDb') (A _ _ _ HDb)) as (E1 & E2 & E3) end.
      injection E2 as E2a E2b. subst. f_equal; [apply IHa; exact HDa'|apply IHb; exact HDb'].
Qed.

End Climb.
