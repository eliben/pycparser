(* C07: the token-level parse . generate = id argument of RoundTrip.v, made generic in the operands.
   Section Levels: the four levels of the expression ladder as statements about a token sequence (CastS,
   CondS, AsgS, ExprS) and the wrappers between them (a cast-expression followed by a token that
   cannot continue it is a conditional-expression, ... ; a parenthesised expression is a
   cast-expression).  Section GenBin: trees of binary operators over ARBITRARY operands (leaves printed by
   [ltoks], denoting [lemb]) - if every leaf operand is parsed back by p_cast_expression, the whole
   printed sequence is parsed back by p_conditional_expression, for both settings of
   reduce_parentheses. *)
From Coq Require Import String.
From Coq Require Import List NArith Bool Arith Lia.
Import ListNotations.
From PV Require Import Regex Base AstDefs AstSpec AstImpl GenTables NodeModel Generator ClimbProofs ClimbComplete GenParen GenBinop.
From PV Require Import LexTables ParserTables PyRepr ParserBase ParserDecl ParserMain LexerProofs TableProofs.
From PV Require Import BinaryRefine ExprShape UnaryShape CoordProofs StreamLib RoundTrip Triple.
Open Scope nat_scope.

(* a token that cannot continue a conditional-expression *)
Definition cstop (k: kind) : bool := bstop k && negb (kind_eqb k K_CONDOP).
Lemma cstop_facts : forall k, cstop k = true -> bstop k = true /\ kind_eqb k K_CONDOP = false.
Proof. intros k H. unfold cstop in H. apply andb_true_iff in H. destruct H as [H1 H2]. apply negb_true_iff in H2. tauto. Qed.
Lemma estop_cstop : forall k, estop k = true -> cstop k = true.
Proof. intros k H. destruct (estop_facts _ H) as [Hb [Hc _]]. unfold cstop. rewrite Hb, Hc. reflexivity. Qed.

(* a token that cannot continue an assignment-expression (a comma can follow one) *)
Definition astop (k: kind) : bool := cstop k && negb (kind_in k tbl_ASSIGNMENT_OPS).
Lemma astop_facts : forall k, astop k = true -> cstop k = true /\ kind_in k tbl_ASSIGNMENT_OPS = false.
Proof. intros k H. unfold astop in H. apply andb_true_iff in H. destruct H as [H1 H2]. apply negb_true_iff in H2. tauto. Qed.
Lemma estop_astop : forall k, estop k = true -> astop k = true.
Proof. intros k H. unfold astop. rewrite (estop_cstop _ H). destruct (estop_facts _ H) as [_ [_ [Ha _]]]. rewrite Ha. reflexivity. Qed.
Lemma comma_astop : astop K_COMMA = true.
Proof. reflexivity. Qed.

(* a token an expression can begin with where a declaration, or the `)` of an empty argument list, could stand: neither of these;
   [first_ok]: such a first token, and no `{` first or after a first `(` (no compound literal, no GNU statement expression) *)
Definition startk (k: kind) : bool := negb (kind_in k tbl_DECL_START) && negb (kind_eqb k K_RPAREN).
Lemma startk_facts : forall k, startk k = true -> kind_in k tbl_DECL_START = false /\ kind_eqb k K_RPAREN = false.
Proof. intros k H. unfold startk in H. apply andb_true_iff in H. destruct H as [H1 H2]. apply negb_true_iff in H1. apply negb_true_iff in H2. tauto. Qed.

Definition first_ok (kvs: list (kind * str)) : Prop :=
  exists k v rest, kvs = (k, v) :: rest /\ startk k = true /\ kind_eqb k K_LBRACE = false /\
    (kind_eqb k K_LPAREN = true ->
     exists k2 v2 rest2, rest = (k2, v2) :: rest2 /\ kind_eqb k2 K_LBRACE = false).

Lemma first_ok_app : forall x y, first_ok x -> first_ok (x ++ y).
Proof.
  intros x y [k [v [rest [-> [H1 [H2 H3]]]]]]. exists k, v, (rest ++ y). split; [reflexivity|]. split; [exact H1|]. split; [exact H2|].
  intros Hl. destruct (H3 Hl) as [k2 [v2 [rest2 [-> H4]]]]. exists k2, v2, (rest2 ++ y). split; [reflexivity|exact H4].
Qed.

Lemma first_ok_parkv : forall x, first_ok x -> first_ok (parkv x).
Proof.
  intros x [k [v [rest [-> [H1 [H2 _]]]]]]. unfold parkv. exists K_LPAREN, (s2l "("), (((k, v) :: rest) ++ [(K_RPAREN, s2l ")")]).
  split; [reflexivity|]. split; [reflexivity|]. split; [reflexivity|]. intros _.
  exists k, v, (rest ++ [(K_RPAREN, s2l ")")]). split; [reflexivity|exact H2].
Qed.


Section Levels.
Variable P : Type.
Notation pstate := (ParserBase.pstate P).
Notation tok := (ParserBase.tok P).
Notation Up := (StreamLib.Up P).
Notation Spell := (RoundTrip.Spell P).

Definition LevelS (run: nat -> M P (ParserBase.node P)) (stopk: kind -> bool) (kvs: list (kind * str)) (X: value unit) : Prop :=
  forall (s: pstate) le (stop: tok) l0, Spell le kvs -> Up s (le ++ stop :: l0) -> stopk (tk stop) = true ->
  exists f0 N s', (forall f, f0 <= f -> run f s = Ok (N, s')) /\ Up s' (stop :: l0) /\ strip N = X /\ Ran P s s' (length le).

Definition CastS := LevelS (p_cast_expression P) quiet.
Definition CondS := LevelS (p_conditional_expression P) cstop.
Definition AsgS := LevelS (p_assignment_expression P) astop.
Definition ExprS := LevelS (p_expression P) estop.

Lemma LevelS_Tr : forall pr run stopk kvs X, LevelS run stopk kvs X -> Tr P pr run kvs (fun k => stopk k = true) (fun N => strip N = X).
Proof. intros pr run stopk kvs X H s le t l0 HS HU Hn _. exact (H s le t l0 HS HU Hn). Qed.
Lemma Tr_LevelS : forall run stopk kvs X, Tr P (anyst P) run kvs (fun k => stopk k = true) (fun N => strip N = X) -> LevelS run stopk kvs X.
Proof. intros run stopk kvs X H s le t l0 HS HU Hn. exact (H s le t l0 HS HU Hn I). Qed.

Lemma climb_stop : forall pr m h, Tr P pr (fun f => p_binary_climb P f m h) [] (fun k => prec_of k = None) (fun N => N = h).
Proof.
  intros pr m h. eapply Tr_S; [intros f; apply (climb_eq P)|]. tr_look Tr_peek as r [x [-> Hx]]; [exact (fun _ H => H)|].
  rewrite Hx. apply Tr_ret. reflexivity.
Qed.

Lemma cast_to_cond : forall kvs X, CastS kvs X -> CondS kvs X.
Proof.
  intros kvs X HC. apply Tr_LevelS. eapply Tr_S; [apply (cond_eq P)|].
  tr_last (LevelS_Tr _ _ _ _ _ HC) as N HN; [intros k Hk; exact (proj1 (bstop_facts _ (proj1 (cstop_facts _ Hk))))|].
  eapply Tr_first; [apply climb_stop|intros k Hk; exact (proj2 (bstop_facts _ (proj1 (cstop_facts _ Hk))))|intros e ->; cbv beta].
  tr_look Tr_accept_miss as q ->; [intros k Hk; exact (proj2 (cstop_facts _ Hk))|]. apply Tr_ret. exact HN.
Qed.

(* past the look-ahead of p_assignment_expression for a GNU statement expression `({`, which finds none *)
Lemma asg_enter : forall pr kvs nx (Q: ParserBase.node P -> Prop), first_ok kvs ->
  Tr P pr (asg_body P) kvs nx Q -> Tr P pr (p_assignment_expression P) kvs nx Q.
Proof.
  intros pr kvs nx Q [k [v [rest0 [-> [_ [_ Hlp]]]]]] H s le t l0 HS HU Hn Hp.
  destruct (asg_pre P s le (t :: l0) k v rest0 HS HU Hlp) as [s2 [HU2 [HS2 K]]].
  apply K. apply (Ev_mono _ _ _ _ _ _ (H s2 le t l0 HS HU2 Hn (pre_ok P pr _ _ Hp (proj2 (proj2 (proj2 HS2)))))).
  intros N s' (HU' & HQ & HR). split; [exact HU'|split; [exact HQ|cost_tac]].
Qed.

Lemma cond_to_asg : forall kvs X, first_ok kvs -> CondS kvs X -> AsgS kvs X.
Proof.
  intros kvs X Hfo HC. apply Tr_LevelS. apply asg_enter; [exact Hfo|]. unfold asg_body.
  tr_last (LevelS_Tr _ _ _ _ _ HC) as N HN; [intros k Hk; exact (proj1 (astop_facts _ Hk))|].
  tr_look Tr_peek as r [x [-> Hx]]; [exact (fun _ H => H)|]. rewrite (proj2 (astop_facts _ Hx)). apply Tr_ret. exact HN.
Qed.

Lemma asg_to_expr : forall kvs X, AsgS kvs X -> ExprS kvs X.
Proof.
  intros kvs X HA. apply Tr_LevelS. eapply Tr_S; [apply (expr_eq P)|].
  tr_last (LevelS_Tr _ _ _ _ _ HA) as N HN; [intros k Hk; exact (estop_astop _ Hk)|].
  tr_look Tr_accept_miss as c ->; [intros k Hk; exact (proj2 (proj2 (proj2 (estop_facts _ Hk))))|]. apply Tr_ret. exact HN.
Qed.

Lemma cond_to_expr : forall kvs X, first_ok kvs -> CondS kvs X -> ExprS kvs X.
Proof. intros kvs X Hf HC. apply asg_to_expr. apply cond_to_asg; assumption. Qed.

Lemma paren_to_cast : forall kvs X, first_ok kvs -> ExprS kvs X -> CastS (parkv kvs) X.
Proof.
  intros kvs X [k [v [rest [Ek [Hds _]]]]] HE. refine (paren_cast_c P kvs X _ HE).
  exists k, v, rest. split; [exact Ek|exact (proj1 (startk_facts _ Hds))].
Qed.
End Levels.

Section GenBin.
Variable P : Type.
Variable rp : bool.
Variable base : Type.
Variable ltoks : base -> list (kind * str).      (* a leaf operand as the generator prints it (parenthesised if need be) *)
Variable lemb : base -> value unit.              (* the tree it denotes *)
Variable lemb_node : forall b, exists c fs co, lemb b = VNode c fs co.

Notation gt := (GenParen.gt base str).
Notation keepL := (GenParen.keepL base str gprec rp).
Notation keepR := (GenParen.keepR base str gprec rp).

Fixpoint kvg (t: gt) : list (kind * str) :=
  match t with
  | GLeaf _ _ b => ltoks b
  | GBin _ _ o l r =>
    (if keepL o l then kvg l else match l with GLeaf _ _ b => ltoks b | GBin _ _ _ _ _ => parkv (kvg l) end) ++ (opk o, o) ::
    (if keepR o r then kvg r else match r with GLeaf _ _ b => ltoks b | GBin _ _ _ _ _ => parkv (kvg r) end)
  end.
Definition katom (a: gt) : list (kind * str) := match a with GLeaf _ _ b => ltoks b | GBin _ _ _ _ _ => parkv (kvg a) end.

Fixpoint embg (t: gt) : value unit :=
  match t with
  | GLeaf _ _ b => lemb b
  | GBin _ _ o l r => VNode C_BinaryOp [VStr o; embg l; embg r] None
  end.
Fixpoint opsg (t: gt) : Prop :=
  match t with GLeaf _ _ _ => True | GBin _ _ o l r => prec_lookup_s o <> None /\ opsg l /\ opsg r end.
Fixpoint hg (t: gt) : nat := match t with GLeaf _ _ _ => 1 | GBin _ _ _ l r => S (Nat.max (hg l) (hg r)) end.
Fixpoint leavesg (Q: base -> Prop) (t: gt) : Prop :=
  match t with GLeaf _ _ b => Q b | GBin _ _ _ l r => leavesg Q l /\ leavesg Q r end.

(* an operand is parsed back: CastS P (katom a) (embg a) *)
Notation AtomOK := (RoundTrip.AtomOK P gt katom embg).

Lemma embg_node : forall a, exists c fs co, embg a = VNode c fs co.
Proof. intros [b|o l r]; [apply lemb_node|]. cbn. eexists. eexists. eexists. reflexivity. Qed.

Definition LeafOK (b: base) : Prop := first_ok (ltoks b) /\ CastS P (ltoks b) (lemb b).

Lemma first_ok_kvg : forall t, leavesg LeafOK t -> first_ok (kvg t).
Proof.
  induction t as [b|o l IHl r IHr]; intros HQ; [exact (proj1 HQ)|]. cbn [leavesg] in HQ. destruct HQ as [HQl _].
  cbn [kvg]. apply first_ok_app. destruct (keepL o l); [exact (IHl HQl)|]. destruct l as [b|ol l1 l2]; [exact (proj1 HQl)|].
  apply first_ok_parkv. exact (IHl HQl).
Qed.

Theorem binop_cond : forall n t, hg t <= n -> opsg t -> leavesg LeafOK t -> (exists o l r, t = GBin _ _ o l r) ->
  CondS P (kvg t) (embg t).
Proof.
  induction n as [|n IH]; intros t Hh Hok HQ Hbin; [destruct t; cbn in Hh; lia|].
  assert (Hatoms: forall a, hg a < hg t -> opsg a -> leavesg LeafOK a -> AtomOK a).
  { intros a Ha Hoa Hqa. destruct a as [b|o l r]; [exact (proj2 Hqa)|]. unfold RoundTrip.AtomOK. cbn [katom].
    apply paren_to_cast; [apply first_ok_kvg; exact Hqa|]. apply cond_to_expr; [apply first_ok_kvg; exact Hqa|].
    apply IH; [lia|exact Hoa|exact Hqa|eexists; eexists; eexists; reflexivity]. }
  destruct (flatten_ok P rp base katom embg (fun t => opsg t /\ leavesg LeafOK t) hg) with (t := t) as [Hhd Hrs];
    [intros o l r [[Ho [Hl Hr]] [Ql Qr]]; auto|intros; cbn [hg]; lia|split; assumption|intros a Ha [Hoa Hqa]; exact (Hatoms a Ha Hoa Hqa)|exact Hbin|].
  intros s le stop l0 HS HU Hst. destruct (cstop_facts _ Hst) as [Hb Hcond].
  exact (cond_flat P rp base kvg katom embg (fun _ => eq_refl) (fun _ _ _ => eq_refl) (fun _ _ _ => eq_refl) embg_node t Hhd Hrs s le stop l0 HS HU Hb Hcond).
Qed.
End GenBin.
