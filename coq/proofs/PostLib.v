(* Small library for "shape of the result" theorems about the parser model.
   Backwards, one run at a time: [bind_Ok] / [ret_Ok] take a successful run apart, one [bind] per use; [coordA_Ok],
   [tok_coord_Ok], [expect_Ok] say what a successful run of that primitive returned and did.
   Hoare style, all runs at once: [post Q m]: every successful run of m returns a value satisfying Q;
   [came_from m a]: a is the value some run of m returned. *)
From Coq Require Import List NArith Bool Arith.
Import ListNotations.
From PV Require Import Regex Base LexTables ParserTables AstDefs AstSpec AstImpl PyRepr NodeModel ParserBase.

Section PL.
Variable P : Type.
Notation M := (M P).

Definition came_from {A} (m: M A) (a: A) : Prop := exists s s', m s = Ok (a, s').
Definition post {A} (Q: A -> Prop) (m: M A) : Prop := forall s a s', m s = Ok (a, s') -> Q a.

Lemma bind_Ok : forall A B (m: M A) (k: A -> M B) s r, bind P m k s = Ok r -> exists a s1, m s = Ok (a, s1) /\ k a s1 = Ok r.
Proof. intros A B m k s r H. unfold bind in H. destruct (m s) as [[a s1]| | |]; try discriminate. exists a, s1. split; [reflexivity|exact H]. Qed.
Lemma ret_Ok : forall A (a b: A) s s', ret P a s = Ok (b, s') -> b = a /\ s' = s.
Proof. intros A a b s s' H. injection H as <- <-. split; reflexivity. Qed.
Lemma coordA_Ok : forall (e: value (coord P)) ec s s', coordA P e s = Ok (ec, s') -> get_coord P e = Some ec /\ s' = s.
Proof. intros e ec s s' H. unfold coordA, lift_opt in H. destruct (get_coord P e); [apply ret_Ok in H as [-> ->]; split; reflexivity|discriminate]. Qed.
Lemma tok_coord_Ok : forall (t: tok P) c s s', tok_coord P t s = Ok (c, s') -> c = mkCoord P (curfile P s) (tp t) /\ s' = s.
Proof. intros t c s s' H. injection H as <- <-. split; reflexivity. Qed.
Lemma expect_Ok : forall k t s s', expect P k s = Ok (t, s') -> advance P s = Ok (t, s') /\ kind_eqb (tk t) k = true.
Proof.
  intros k t s s' H. unfold expect in H. apply bind_Ok in H as (t0 & s1 & Ea & H). destruct (kind_eqb (tk t0) k) eqn:Ek.
  - apply ret_Ok in H as [-> ->]. split; [exact Ea|exact Ek].
  - apply bind_Ok in H as (c & s2 & _ & H). discriminate.
Qed.

Lemma post_ret : forall A (Q: A -> Prop) a, Q a -> post Q (ret P a).
Proof. intros A Q a H s a' s' E. apply ret_Ok in E as [-> _]. exact H. Qed.
Lemma post_bind_from : forall A B (Q: B -> Prop) (m: M A) (f: A -> M B),
  (forall a, came_from m a -> post Q (f a)) -> post Q (bind P m f).
Proof.
  intros A B Q m f H s b s' E. apply bind_Ok in E as (a & s1 & Em & E). eapply (H a); [exists s, s1; exact Em|exact E].
Qed.
Lemma post_fail : forall A (Q: A -> Prop) l msg, post Q (fail P (A:=A) l msg).
Proof. intros A Q l msg s a s' E. discriminate. Qed.
Lemma post_crash : forall A (Q: A -> Prop) k, post Q (crash P (A:=A) k).
Proof. intros A Q k s a s' E. discriminate. Qed.
Lemma post_oof : forall A (Q: A -> Prop), post Q (out_of_fuel P (A:=A)).
Proof. intros A Q s a s' E. discriminate. Qed.
(* with [simpl] this unfolds a production one step and leaves its recursive calls under their names ([cbn] leaves each
   as the whole mutual [fix], which every later step then drags along); [simpl] does so only when an argument follows the fuel *)
Lemma post_ext : forall A (Q: A -> Prop) (m m': M A), (forall s, m s = m' s) -> post Q m' -> post Q m.
Proof. intros A Q m m' E H s. rewrite E. apply H. Qed.
Lemma came_post : forall A (m: M A) (Q: A -> Prop) a, came_from m a -> post Q m -> Q a.
Proof. intros A m Q a [s [s' E]] Hp. eapply Hp; eauto. Qed.
Lemma post_came : forall A (Q: A -> Prop) (m: M A), (forall a, came_from m a -> Q a) -> post Q m.
Proof. intros A Q m H s a s' E. apply H. exists s, s'. exact E. Qed.
Lemma came_coordA : forall (e: value (coord P)) ec, came_from (coordA P e) ec -> get_coord P e = Some ec.
Proof. intros e ec [s [s' H]]. apply coordA_Ok in H. apply H. Qed.
End PL.

(* down through binds, matches and ifs to the leaves, closing those that cannot succeed *)
Ltac post_tac P :=
  repeat first
    [ apply (post_bind_from P); intros
    | match goal with
      | |- post P _ (match ?x with _ => _ end) => destruct x
      | |- post P _ (if ?b then _ else _) => destruct b
      end
    | apply (post_fail P) | apply (post_crash P) | apply (post_oof P) ].
