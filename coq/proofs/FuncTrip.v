(* C01 / C07 / C16, token level, WHOLE TRANSLATION UNITS: a sequence of function definitions `T f ( ) { block items }` and file-scope
   object declarations `T x ;` / `T x = e ;` - T a non-empty run of simple type-specifier keywords, the body a block of the statement
   language of StmtTrip (declarations of objects included) - followed by the end of the input is parsed by [parse_tokens] (CParser.parse
   after its three resets) to exactly the FileAST of these external declarations:
   forward reasoning through p_translation_unit, p_external_declaration (declaration specifiers, the speculative declarator scan,
   p_declarator_kind / p_direct_declarator / p_decl_suffixes / p_function_decl, _type_modify_decl), the body (p_compound_statement),
   _build_function_definition (_build_declarations, _fix_decl_name_type along the FuncDecl -> TypeDecl chain, the function's name entering
   the file scope), and the end of the input (peek at EOF, twice). *)
From Coq Require Import String.
From Coq Require Import List NArith Bool Arith Lia.
Import ListNotations.
From PV Require Import Regex Base AstDefs AstSpec AstImpl GenTables NodeModel Generator ClimbProofs ClimbComplete GenParen GenBinop.
From PV Require Import LexTables ParserTables PyRepr ParserBase ParserDecl ParserMain LexerProofs TableProofs.
From PV Require Import BinaryRefine ExprShape UnaryShape CoordProofs ElseProofs StmtShape StreamLib Triple RoundTrip RoundTripGen RoundTripX TypeName DeclTrip StmtTrip.
From PV Require DeclRefine.
Open Scope nat_scope.

Section FT.
Variable P : Type.
Notation pstate := (ParserBase.pstate P).
Notation node := (ParserBase.node P).
Notation Up := (StreamLib.Up P).
Notation Spell := (RoundTrip.Spell P).
Notation NoTD := (StreamLib.NoTD).

Definition fdecl_of (x: str) (c: coord P) : node :=
  VNode C_FuncDecl [VNone; mkTypeDecl P (VStr x) VNone VNone VNone (Some c)] (Some c).

Lemma function_decl_eq : forall f base, p_function_decl P (S f) base =
  bind P (expect P K_LPAREN) (fun _ =>
  bind P (accept P K_RPAREN) (fun rp =>
  bind P (match rp with
          | Some _ => ret P VNone
          | None =>
            bind P (starts_declaration P) (fun sd =>
            bind P (if sd then p_parameter_type_list P f
                    else bind P (peek_kind P) (fun k => if okind_is k K_RPAREN then ret P VNone else p_identifier_list P f)) (fun a =>
            bind P (expect P K_RPAREN) (fun _ => ret P a)))
          end) (fun args =>
  bind P (coordA P base) (fun bc =>
  let func := mkN P C_FuncDecl [args; VNone] bc in
  bind P (peek_kind P) (fun k =>
  bind P (if okind_is k K_LBRACE then
            match args with
            | VNone => ret P tt
            | _ => bind P (getA P a_params args) (fun ps => match ps with VList l => register_params P l | _ => crash P CK_Type end)
            end
          else ret P tt) (fun _ => ret P func)))))).
Proof. reflexivity. Qed.

Lemma fn_declarator : forall (s: pstate) x lp rp lb l, Up s (x :: lp :: rp :: lb :: l) -> tk x = K_ID -> tk lp = K_LPAREN -> tk rp = K_RPAREN -> tk lb = K_LBRACE ->
  exists c s', (forall f, 6 <= f -> p_declarator_kind P f true true s = Ok (fdecl_of (tv x) c, s')) /\ Up s' (lb :: l) /\
    idx P s' = idx P s + 3 /\ N.to_nat (ticks P s') <= N.to_nat (ticks P s) + 3 /\ SC P s s'.
Proof.
  intros s x lp rpt lb l HU Hk Hlp Hrp Hlb. destruct (kind_id P s x _ HU Hk) as (c & s1 & HU1 & HA1 & E).
  destruct (peek_kind_up P s1 lp _ HU1) as [s2 [H2 [HU2 HS2]]].
  destruct (expect_up P s2 lp _ K_LPAREN HU2 ltac:(rewrite Hlp; reflexivity)) as [s3 [H3 [HU3 HA3]]].
  destruct (accept_hit P s3 rpt _ K_RPAREN HU3 ltac:(rewrite Hrp; reflexivity)) as [s4 [H4 [HU4 HA4]]].
  destruct (peek_kind_up P s4 lb _ HU4) as [s5 [H5 [HU5 HS5]]].
  destruct (peek_kind_up P s5 lb _ HU5) as [s6 [H6 [HU6 HS6]]].
  exists c, s6. split; [|split; [exact HU6|cost_tac]].
  intros f Hf. do 6 (destruct f as [|f]; [lia|]). apply E. rewrite DeclRefine.suffix_eq. eapply bind_then; [exact H2|]. cbn [okind_is]. rewrite Hlp. kred.
  eapply bind_then.
  { rewrite function_decl_eq. eapply bind_then; [exact H3|]. eapply bind_then; [exact H4|]. eapply bind_then; [reflexivity|].
    eapply bind_then; [reflexivity|]. cbv zeta. eapply bind_then; [exact H5|]. cbn [okind_is]. rewrite Hlb. kred. reflexivity. }
  (* _type_modify_decl puts the FuncDecl, a chain of one link, above the TypeDecl of the name *)
  eapply bind_then; [exact (DeclProofs.modify_splice P [] _ _ [DeclProofs.LFun P VNone (Some c)] WF s5 ltac:(discriminate) (proj1 (Nat.leb_le 1 WF) eq_refl))|].
  rewrite DeclRefine.suffix_eq. eapply bind_then; [exact H6|]. cbn [okind_is]. rewrite Hlb. kred. reflexivity.
Qed.

Definition fdecl0 (x: str) (c: coord P) : node :=
  mkN P C_Decl [VNone; VList []; VList []; VList []; VList []; fdecl_of x c; VNone; VNone] (Some c).
Definition fdecl1 (x: str) (c: coord P) (names: list node) (c0: coord P) : node :=
  VNode C_Decl [VStr x; VList []; VList []; VList []; VList [];
                VNode C_FuncDecl [VNone; VNode C_TypeDecl [VStr x; VList []; VNone; VNode C_IdentifierType [VList names] (Some c0)] (Some c)] (Some c);
                VNone; VNone] (Some c).

Lemma adjust_first_fn : forall ns x c (s: pstate),
  adjust_first P (spec_of P ns) [mkDI P (Some (fdecl_of x c)) VNone VNone] s = Ok ((spec_of P ns, [mkDI P (Some (fdecl_of x c)) VNone VNone]), s).
Proof.
  reflexivity.
Qed.

Lemma fix_fdecl0 : forall x c n0 ns v0 vs c0 (s: pstate), n0 = mkIdType P [v0] (Some c0) -> IdNodes P ns vs ->
  fix_decl_name_type P WF (fdecl0 x c) (n0 :: ns) s = Ok (fdecl1 x c (map (fun v => VStr v) (v0 :: vs)) c0, s).
Proof.
  intros x c n0 ns v0 vs c0 s ->. exact (fix_chain_decl P [DeclProofs.LFun P VNone (Some c)] x c (Some c) VNone ns v0 vs c0 s (proj1 (Nat.ltb_lt 2 WF) eq_refl)).
Qed.

Lemma fix_atomic_fdecl1 : forall x c names c0 (s: pstate),
  fix_atomic_specifiers P WF (fdecl1 x c names c0) s = Ok (fdecl1 x c names c0, s).
Proof. reflexivity. Qed.

Lemma build_fn : forall x c n0 ns v0 vs c0 body (s: pstate) l, n0 = mkIdType P [v0] (Some c0) -> IdNodes P ns vs ->
  NoTD (scopes P s) -> Up s l ->
  exists s', build_function_definition P (spec_of P (n0 :: ns)) (fdecl_of x c) VNone body s =
               Ok (mkN P C_FuncDef [fdecl1 x c (map (fun v => VStr v) (v0 :: vs)) c0; VNone; body] (Some c), s') /\
             Up s' l /\ Same P s s' /\ NoTD (scopes P s').
Proof.
  intros x c n0 ns v0 vs c0 body s l -> Hns HN HU.
  destruct (build_one_chain P [DeclProofs.LFun P VNone (Some c)] x c (Some c) VNone ns v0 vs c0 s l (proj1 (Nat.ltb_lt 2 WF) eq_refl)
              (fun _ => eq_refl) (fix_atomic_fdecl1 x c _ c0) Hns HN HU) as (s' & H1 & H').
  exists s'. split; [|exact H']. unfold build_function_definition. eapply bind_then; [reflexivity|].
  eapply bind_then; [apply build_decls_loop; [reflexivity|apply adjust_first_fn|cbn [build_loop]; eapply bind_then; [exact H1|]; reflexivity|reflexivity]|].
  reflexivity.
Qed.

(* the rest of p_external_declaration once the specifiers are read and the scan has seen an identifier *)
Definition ext_declarator (f: nat) (spec: dspec P) (spec_coord: option (coord P)) : M P (list node) :=
  bind P (p_declarator_kind P f true true) (fun decl =>
  bind P (peek_kind P) (fun k2 =>
  bind P (starts_declaration P) (fun sd =>
  if okind_is k2 K_LBRACE || sd then
    bind P (if sd then bind P (p_declaration_list P f) (fun l => ret P (VList l)) else ret P VNone) (fun pds =>
    bind P (peek_kind P) (fun k3 =>
    bind P (coordA P decl) (fun dc =>
    if negb (okind_is k3 K_LBRACE) then fail P (loc_of P dc) (s2l "Invalid function definition")
    else
      let spec' := match s_type P spec with
                   | [] => with_type P spec [mkIdType P [s_int] spec_coord]
                   | _ => spec end in
      bind P (p_compound_statement P f) (fun body =>
      bind P (build_function_definition P spec' decl pds body) (fun fd =>
      ret P [fd])))))
  else
    bind P (accept P K_EQUALS) (fun eq =>
    bind P (match eq with Some _ => p_initializer P f | None => ret P VNone end) (fun init =>
    bind P (p_init_declarator_list P f (Some (mkDI P (Some decl) init VNone)) false) (fun infos =>
    bind P (build_declarations P spec infos true) (fun ds =>
    bind P (expect P K_SEMI) (fun _ => ret P ds)))))))).

Lemma extdecl_eq : forall f, p_external_declaration P (S f) =
  bind P (peek P) (fun t =>
    match t with
    | None => ret P []
    | Some t' =>
      let k := tk t' in
      if kind_eqb k K_PPHASH then
        bind P (expect P K_PPHASH) (fun ht => bind P (tok_coord P ht) (fun c => fail P (L_coord P c) (s2l "Directives not supported yet")))
      else if kind_eqb k K_PPPRAGMA || kind_eqb k K_uPRAGMA then bind P (p_pppragma_directive P f) (fun p => ret P [p])
      else
      bind P (accept P K_SEMI) (fun sm =>
      match sm with
      | Some _ => ret P []
      | None =>
        if kind_eqb k K_uSTATIC_ASSERT then p_static_assert P f
        else if negb (kind_in k tbl_DECL_START) then
          bind P (p_declarator_kind P f true true) (fun decl =>
          bind P (peek_kind P) (fun k2 =>
          bind P (coordA P decl) (fun dc =>
          if negb (okind_is k2 K_LBRACE) then fail P (loc_of P dc) (s2l "Invalid function definition")
          else
            let spec := mkSpec P [] [] [mkIdType P [s_int] dc] [] [] in
            bind P (p_compound_statement P f) (fun body =>
            bind P (build_function_definition P spec decl VNone body) (fun fd =>
            ret P [fd])))))
        else
          bind P (p_declaration_specifiers P f true) (fun r =>
          let '(spec, saw_type, spec_coord) := r in
          bind P (peek_declarator_name_info P f) (fun info =>
          if negb (okind_is (fst info) K_ID) then
            bind P (p_decl_body_with_spec P f spec saw_type) (fun ds =>
            bind P (expect P K_SEMI) (fun _ => ret P ds))
          else ext_declarator f spec spec_coord))
      end)
    end).
Proof. reflexivity. Qed.

(* type keywords T, then the identifier tx: the specifiers are read (at most three reads per token) and the scan looks at tx and
   puts it back (one more read); the declarator comes next *)
Lemma ext_head : forall k0 v0 ty, Forall (fun kv => kind_in (fst kv) tbl_TYPE_SPEC_SIMPLE = true) ((k0, v0) :: ty) ->
  forall (s: pstate) lty tx l Q, Spell lty ((k0, v0) :: ty) -> Up s (lty ++ tx :: l) -> tk tx = K_ID ->
  (forall c0 ns co s2, IdNodes P ns (map snd ty) -> Up s2 (tx :: l) -> idx P s2 = idx P s + length lty ->
     N.to_nat (ticks P s2) <= N.to_nat (ticks P s) + 3 * length lty + 1 -> SC P s s2 ->
     Ev (fun f => ext_declarator f (spec_of P (mkIdType P [v0] (Some c0) :: ns)) co) s2 Q) ->
  Ev (p_external_declaration P) s Q.
Proof.
  intros k0 v0 ty HF s lty tx l Q HSty HU Hkx HK.
  destruct (RoundTrip.Spell_cons_inv P _ _ _ _ HSty) as [t0 [lty' [El [Hk0 _]]]].
  destruct (simple_kind_table k0 (Forall_inv HF)) as (_ & _ & _ & _ & _ & E5 & E1 & E2 & E3 & E4).
  rewrite El in HU. cbn [app] in HU.
  destruct (peek_up P s t0 _ HU) as [sa [Ha [HUa HSa]]].
  destruct (accept_miss P sa t0 _ K_SEMI HUa ltac:(rewrite Hk0; exact E3)) as [sb [Hb [HUb HSb]]].
  rewrite app_comm_cons, <- El in HUb.
  eapply Ev_S; [apply extdecl_eq|]. eapply Ev_step; [exact Ha|]. cbv beta iota zeta. rewrite Hk0, E1, E2.
  eapply Ev_step; [exact Hb|]. cbv beta iota. rewrite E4, E5. cbn [negb].
  apply Ev_bind. eapply Ev_mono; [exact (declspec_tr P (anyst P) k0 v0 ty HF sb lty tx l HSty HUb Hkx I)|].
  intros ? s1 (HU1 & (c0 & ns & co & Hns & ->) & HR1). cbv beta iota.
  destruct (scan_id P s1 tx _ HU1 Hkx) as [s2 [H2 (HU2 & Hi2 & Ht2 & Hsc2)]].
  apply Ev_bind. exists 2, (Some K_ID, false), s2. split; [exact H2|]. cbn [fst okind_is negb]. change (kind_eqb K_ID K_ID) with true. cbv iota.
  apply (HK c0 ns co s2 Hns HU2); cost_tac.
Qed.

Definition ftoks (ty: list (kind * str)) (f: str) (body: list (kind * str)) : list (kind * str) :=
  ty ++ (K_ID, f) :: (K_LPAREN, s2l "(") :: (K_RPAREN, s2l ")") :: (K_LBRACE, s2l "{") :: body ++ [(K_RBRACE, s2l "}")].
Definition fembed (ty: list (kind * str)) (f: str) (Xb: value unit) : value unit :=
  VNode C_FuncDef [VNode C_Decl [VStr f; VList []; VList []; VList []; VList [];
                                 VNode C_FuncDecl [VNone; VNode C_TypeDecl [VStr f; VList []; VNone; VNode C_IdentifierType [VList (map (fun v => VStr v) (map snd ty))] None] None] None;
                                 VNone; VNone] None; VNone; Xb] None.

Notation item_okD := (item_ok P (fun s => NoTD (scopes P s)) true).

Lemma extdecl_fn : forall ty f items, ty <> [] -> Forall (fun kv => kind_in (fst kv) tbl_TYPE_SPEC_SIMPLE = true) ty -> Forall item_okD items ->
  forall (s: pstate) le rest, Spell le (ftoks ty f (concat (map (fun it => fst (fst it)) items))) -> Up s (le ++ rest) -> NoTD (scopes P s) ->
  exists f0 Ns s', (forall fu, f0 <= fu -> p_external_declaration P fu s = Ok (Ns, s')) /\ Up s' rest /\
    map (@strip (coord P)) Ns = [fembed ty f (VNode C_Compound [match items with [] => VNone | _ => VList (map (fun it => snd (fst it)) items) end] None)] /\
    Ran P s s' (length le).
Proof.
  intros ty f items Hne HF HI s le rest HS HU HN. unfold ftoks in HS.
  destruct (RoundTrip.Spell_app_inv P _ _ _ HS) as [lty [l1 [-> [HSty HS1]]]].
  destruct (RoundTrip.Spell_cons_inv P _ _ _ _ HS1) as [tx [l2 [-> [Hkx [Hvx HS2]]]]].
  destruct (RoundTrip.Spell_cons_inv P _ _ _ _ HS2) as [lp [l3 [-> [Hklp [_ HS3]]]]].
  destruct (RoundTrip.Spell_cons_inv P _ _ _ _ HS3) as [rpt [l4 [-> [Hkrp [_ HS4]]]]].
  destruct (RoundTrip.Spell_cons_inv P _ _ _ _ HS4) as [lb [l5 [-> [Hklb [_ HS5]]]]].
  destruct (RoundTrip.Spell_app_inv P _ _ _ HS5) as [li [l6 [-> [HSi HS6]]]].
  destruct (Spell_one P _ _ _ HS6) as [rb [-> [Hkrb _]]].
  rewrite <- app_assoc in HU. cbn [app] in HU. rewrite <- app_assoc in HU. cbn [app] in HU.
  destruct ty as [|[k0 v0] ty']; [congruence|].
  apply (ext_head k0 v0 ty' HF s lty tx _ _ HSty HU Hkx). intros c0 ns co s2 Hns HU2 Hi2 Ht2 Hsc2. unfold ext_declarator.
  destruct (fn_declarator s2 tx lp rpt lb _ HU2 Hkx Hklp Hkrp Hklb) as [c [s3 [H3 (HU3 & Hi3 & Ht3 & Hsc3)]]].
  apply Ev_bind. exists 6, (fdecl_of (tv tx) c), s3. split; [exact H3|].
  (* `{` follows: a function definition without K&R parameter declarations *)
  destruct (peek_kind_up P s3 lb _ HU3) as [s4 [H4 [HU4 HS4']]]. eapply Ev_step; [exact H4|].
  destruct (starts_declaration_up P s4 lb _ HU4) as [s5 [H5 [HU5 HS5']]]. eapply Ev_step; [exact H5|].
  destruct (peek_kind_up P s5 lb _ HU5) as [s6 [H6 [HU6 HS6']]].
  cbn [okind_is]. rewrite Hklb. change (kind_eqb K_LBRACE K_LBRACE) with true. change (kind_in K_LBRACE tbl_DECL_START) with false. cbv beta iota. cbn [orb negb].
  eapply Ev_step; [reflexivity|]. eapply Ev_step; [exact H6|]. eapply Ev_step; [reflexivity|].
  cbn [okind_is]. rewrite Hklb. change (kind_eqb K_LBRACE K_LBRACE) with true. cbv beta iota zeta. cbn [negb s_type spec_of].
  assert (HN6: NoTD (scopes P s6)) by cost_tac.
  apply Ev_bind. eapply Ev_mono; [exact (compound_run P (fun s => NoTD (scopes P s)) (pre_notd_SC P) true (pre_notd_notd P) items HI s6 lb li rb rest Hklb HSi Hkrb HU6 HN6)|].
  intros B s7 (HU7 & HB & HR7).
  destruct (build_fn (tv tx) c _ ns v0 (map snd ty') c0 B s7 rest eq_refl Hns (proj1 (proj2 (proj2 HR7)) HN6) HU7) as [s8 [H8 [HU8 [HS8 HN8]]]].
  eapply Ev_step; [exact H8|]. apply Ev_ret. split; [exact HU8|split; [|cost_tac]].
  unfold fdecl1, fembed, mkN. cbn [map strip snd]. rewrite (strip_strs P), Hvx, HB. reflexivity.
Qed.

(* an external declaration that is parsed back on its own *)
Definition ExtS (kvs: list (kind * str)) (X: value unit) : Prop :=
  (exists k v r, kvs = (k, v) :: r) /\
  forall (s: pstate) le rest, Spell le kvs -> Up s (le ++ rest) -> NoTD (scopes P s) ->
  exists f0 Ns s', (forall fu, f0 <= fu -> p_external_declaration P fu s = Ok (Ns, s')) /\ Up s' rest /\
    map (@strip (coord P)) Ns = [X] /\ Ran P s s' (length le).

(* a function definition given by its type keywords, its name and the items of its body *)
Definition fn_ok (fd: list (kind * str) * str * list (list (kind * str) * value unit * bool)) : Prop :=
  let '(ty, f, items) := fd in ty <> [] /\ Forall (fun kv => kind_in (fst kv) tbl_TYPE_SPEC_SIMPLE = true) ty /\ Forall item_okD items.
Definition fn_toks (fd: list (kind * str) * str * list (list (kind * str) * value unit * bool)) : list (kind * str) :=
  let '(ty, f, items) := fd in ftoks ty f (concat (map (fun it => fst (fst it)) items)).
Definition fn_emb (fd: list (kind * str) * str * list (list (kind * str) * value unit * bool)) : value unit :=
  let '(ty, f, items) := fd in
  fembed ty f (VNode C_Compound [match items with [] => VNone | _ => VList (map (fun it => snd (fst it)) items) end] None).

Lemma fn_toks_head : forall fd, fn_ok fd -> exists k v r, fn_toks fd = (k, v) :: r.
Proof. intros [[ty f] items] (Hne & _ & _). destruct ty as [|[k v] ty']; [congruence|]. cbn [fn_toks]. unfold ftoks. cbn [app]. eexists; eexists; eexists; reflexivity. Qed.

Lemma fn_ExtS : forall fd, fn_ok fd -> ExtS (fn_toks fd) (fn_emb fd).
Proof.
  intros fd Hfd. split; [exact (fn_toks_head fd Hfd)|]. destruct fd as [[ty f] items]. destruct Hfd as (Hne & Hty & Hit).
  intros s le rest HS HU HN. exact (extdecl_fn ty f items Hne Hty Hit s le rest HS HU HN).
Qed.

Lemma extdecl_obj : forall ty x ki Xi, ty <> [] -> Forall (fun kv => kind_in (fst kv) tbl_TYPE_SPEC_SIMPLE = true) ty -> InitOK P ki Xi ->
  ExtS (dtoks ty x ki) (dembed ty x Xi).
Proof.
  intros ty x ki Xi Hne HF HI. destruct ty as [|[k0 v0] ty']; [congruence|]. split; [do 3 eexists; reflexivity|].
  intros s le rest HS HU HN. unfold dtoks in HS.
  destruct (RoundTrip.Spell_app_inv P _ _ _ HS) as [lty [l1 [-> [HSty HS1]]]].
  destruct (RoundTrip.Spell_cons_inv P _ _ _ _ HS1) as [tx [l2 [-> [Hkx [Hvx HS2]]]]].
  destruct (RoundTrip.Spell_app_inv P _ _ _ HS2) as [lki [l3 [-> [HSki HS3]]]].
  destruct (Spell_one P _ _ _ HS3) as [semi [-> [Hksemi _]]].
  rewrite <- app_assoc in HU. cbn [app] in HU. rewrite <- app_assoc in HU. cbn [app] in HU.
  apply (ext_head k0 v0 ty' HF s lty tx _ _ HSty HU Hkx). intros c0 ns co s2 Hns HU2 Hi2 Ht2 Hsc2. unfold ext_declarator.
  (* the declarator `x`, then what follows it: `=` or `;` *)
  assert (Hnext: exists n l', lki ++ semi :: rest = n :: l' /\ (tk n = K_EQUALS \/ tk n = K_SEMI)).
  { destruct HI as [[-> ->]|[kvs [-> _]]].
    - apply (RoundTrip.Spell_nil_inv P) in HSki. subst lki. exists semi, rest. split; [reflexivity|right; exact Hksemi].
    - destruct (RoundTrip.Spell_cons_inv P _ _ _ _ HSki) as [eqt [le' [-> [Hke _]]]]. exists eqt, (le' ++ semi :: rest). split; [reflexivity|left; exact Hke]. }
  destruct Hnext as (n & l' & En & Hn). rewrite En in HU2.
  assert (Hnk: kind_eqb (tk n) K_LBRACKET = false /\ kind_eqb (tk n) K_LPAREN = false /\ (kind_eqb (tk n) K_LBRACE || kind_in (tk n) tbl_DECL_START) = false).
  { destruct Hn as [-> | ->]; repeat split. }
  destruct Hnk as (Hn1 & Hn2 & Hn3).
  destruct (declarator_kind_id P s2 tx n l' HU2 Hkx Hn1 Hn2) as (c & s3 & H3 & HU3 & Hi3 & Ht3 & Hsc3).
  apply Ev_bind. exists 3, (td_of P (tv tx) c), s3. split; [exact H3|].
  destruct (peek_kind_up P s3 n _ HU3) as [s4 [H4 [HU4 HS4]]]. eapply Ev_step; [exact H4|].
  destruct (starts_declaration_up P s4 n _ HU4) as [s5 [H5 [HU5 HS5]]]. eapply Ev_step; [exact H5|].
  cbn [okind_is]. rewrite Hn3. cbv beta iota. rewrite <- En in HU5.
  (* the initializer, if any; no further declarator *)
  apply Ev_assoc. apply Ev_bind.
  eapply Ev_mono; [exact (init_tr P (anyst P) ki Xi HI s5 lki semi rest HSki HU5 ltac:(rewrite Hksemi; split; reflexivity) I)|]. intros I0 s6 (HU6 & HI6 & HR6).
  apply Ev_bind. eapply Ev_S; [intro; apply idl_eq|]. eapply Ev_step; [reflexivity|]. apply Ev_bind.
  eapply Ev_mono; [exact (idm_run P [] (Forall_nil _) s6 [] semi rest eq_refl Hksemi HU6)|]. intros infos s7 (HU7 & HD7 & HR7). inversion HD7. subst infos. apply Ev_ret.
  assert (HN7: NoTD (scopes P s7)) by cost_tac.
  destruct (build_decl_td P (tv tx) c I0 _ ns v0 (map snd ty') c0 s7 _ eq_refl Hns HN7 HU7) as [s8 [H8 [HU8 [HS8 HN8]]]].
  eapply Ev_step; [exact H8|].
  destruct (expect_up P s8 semi _ K_SEMI HU8 ltac:(rewrite Hksemi; reflexivity)) as [s9 [H9 [HU9 HA9]]].
  eapply Ev_step; [exact H9|]. apply Ev_ret. split; [exact HU9|split; [|cost_tac]].
  unfold decl1, dembed. cbn [map strip snd]. rewrite (strip_strs P), Hvx, HI6. reflexivity.
Qed.

Lemma tu_eq : forall f, p_translation_unit P (S f) =
  bind P (peek P) (fun t =>
    match t with
    | None => ret P []
    | Some _ => bind P (p_external_declaration P f) (fun e => bind P (p_translation_unit P f) (fun r => ret P (e ++ r)))
    end).
Proof. reflexivity. Qed.

Lemma tu_run_map : forall A (toks: A -> list (kind * str)) (emb: A -> value unit) (ds: list A), Forall (fun d => ExtS (toks d) (emb d)) ds ->
  forall (s: pstate) le, Spell le (concat (map toks ds)) -> UpEnd P s le -> NoTD (scopes P s) ->
  Ev (p_translation_unit P) s (fun Ns s' => AtEOF P s' /\ map (@strip (coord P)) Ns = map emb ds /\
    idx P s' = idx P s + length le /\ N.to_nat (ticks P s') <= N.to_nat (ticks P s) + 3 * length le).
Proof.
  intros A toks emb. induction ds as [|d ds IH]; intros HF s le HS HE HN; (eapply Ev_S; [apply tu_eq|]).
  - apply (RoundTrip.Spell_nil_inv P) in HS. subst le. destruct (peek_end_cost P s HE) as (s1 & H1 & HA1 & _ & Hi1 & Ht1).
    eapply Ev_step; [exact H1|]. apply Ev_ret. cbn [length]. repeat split; [exact HA1|lia|lia].
  - inversion HF as [|x y [[k [v [r Ek]]] Hrun] HF']; subst x y. cbn [map concat] in HS.
    destruct (RoundTrip.Spell_app_inv P _ _ _ HS) as [l1 [lr [-> [HS1 HSr]]]].
    pose proof HS1 as HS1'. rewrite Ek in HS1'. destruct (RoundTrip.Spell_cons_inv P _ _ _ _ HS1') as [t [tl [El _]]].
    pose proof (proj1 HE) as HU. rewrite El in HU. cbn [app] in HU.
    destruct (peek_up P s t _ HU) as [s1 [H1 [HU1 HS1s]]]. rewrite app_comm_cons, <- El in HU1.
    eapply Ev_step; [exact H1|]. cbv beta iota. apply Ev_bind.
    eapply Ev_mono; [exact (Hrun s1 l1 lr HS1 HU1 ltac:(cost_tac))|]. intros Ns1 s2 (HU2 & HNs1 & HR2). apply Ev_bind.
    eapply Ev_mono; [apply (IH HF' s2 lr HSr); [apply (UpEnd_ran P s s2 l1 lr HE HU2)|]; cost_tac|]. intros Ns2 s3 (HA3 & HNs2 & Hi3 & Ht3).
    apply Ev_ret. split; [exact HA3|split; [|cost_tac]]. rewrite map_app. exact (f_equal2 (@app (value unit)) HNs1 HNs2).
Qed.

Lemma tu_run_g : forall eds, Forall (fun e => ExtS (fst e) (snd e)) eds ->
  forall (s: pstate) le, Spell le (concat (map fst eds)) -> UpEnd P s le -> NoTD (scopes P s) ->
  exists f0 Ns s', (forall fu, f0 <= fu -> p_translation_unit P fu s = Ok (Ns, s')) /\ AtEOF P s' /\
    map (@strip (coord P)) Ns = map snd eds /\
    idx P s' = idx P s + length le /\ N.to_nat (ticks P s') <= N.to_nat (ticks P s) + 3 * length le.
Proof. exact (tu_run_map _ fst snd). Qed.

Lemma tu_run : forall fds, Forall fn_ok fds ->
  forall (s: pstate) le, Spell le (concat (map fn_toks fds)) -> UpEnd P s le -> NoTD (scopes P s) ->
  exists f0 Ns s', (forall fu, f0 <= fu -> p_translation_unit P fu s = Ok (Ns, s')) /\ AtEOF P s' /\
    map (@strip (coord P)) Ns = map fn_emb fds /\
    idx P s' = idx P s + length le /\ N.to_nat (ticks P s') <= N.to_nat (ticks P s) + 3 * length le.
Proof. intros fds HF. exact (tu_run_map _ fn_toks fn_emb fds (Forall_impl _ fn_ExtS HF)). Qed.

Lemma parse_eq : forall fu, parse_tokens P fu =
  bind P (p_translation_unit P fu) (fun ext => bind P (peek P) (fun t =>
    match t with
    | Some t' => bind P (tok_coord P t') (fun c => fail P (L_coord P c) (s2l "before: " ++ tv t'))
    | None => ret P (mkN P C_FileAST [VList ext] None)
    end)).
Proof. reflexivity. Qed.

Lemma parse_run_map : forall A (toks: A -> list (kind * str)) (emb: A -> value unit) (ds: list A), Forall (fun d => ExtS (toks d) (emb d)) ds ->
  forall items le eof file, Spell le (concat (map toks ds)) -> UpR P [[]] items le -> length items = length le ->
  exists f0 N s', (forall fu, f0 <= fu -> parse_tokens P fu (init_pstate P items eof file) = Ok (N, s')) /\
    strip N = VNode C_FileAST [VList (map emb ds)] None /\
    idx P s' = length le /\ N.to_nat (ticks P s') <= 3 * length le.
Proof.
  intros A toks emb ds HF items le eof file HS HU Hlen. apply Ev_bind.
  eapply Ev_mono; [apply (tu_run_map A toks emb ds HF _ le HS)|].
  - split; [apply (Up_initial P); [reflexivity|exact HU]|]. unfold tot, init_pstate. cbn [idx after raw length]. lia.
  - split; [discriminate|repeat constructor].
  - intros Ns s1 (HA1 & HNs & Hi1 & Ht1). eapply Ev_step; [exact (peek_eof P s1 HA1)|]. apply Ev_ret.
    split; [unfold mkN; cbn [strip map]; rewrite HNs; reflexivity|split; [exact Hi1|exact Ht1]].
Qed.

Theorem parse_run_g : forall eds, Forall (fun e => ExtS (fst e) (snd e)) eds ->
  forall items le eof file, Spell le (concat (map fst eds)) -> UpR P [[]] items le -> length items = length le ->
  exists f0 N s', (forall fu, f0 <= fu -> parse_tokens P fu (init_pstate P items eof file) = Ok (N, s')) /\
    strip N = VNode C_FileAST [VList (map snd eds)] None /\
    idx P s' = length le /\ N.to_nat (ticks P s') <= 3 * length le.
Proof. exact (parse_run_map _ fst snd). Qed.

Theorem parse_run : forall fds, Forall fn_ok fds ->
  forall items le eof file, Spell le (concat (map fn_toks fds)) -> UpR P [[]] items le -> length items = length le ->
  exists f0 N s', (forall fu, f0 <= fu -> parse_tokens P fu (init_pstate P items eof file) = Ok (N, s')) /\
    strip N = VNode C_FileAST [VList (map fn_emb fds)] None /\
    idx P s' = length le /\ N.to_nat (ticks P s') <= 3 * length le.
Proof. intros fds HF. exact (parse_run_map _ fn_toks fn_emb fds (Forall_impl _ fn_ExtS HF)). Qed.
End FT.

Section Prog.
Variable P : Type.
Variable rp : bool.

Definition fdef : Type := list (kind * str) * str * list st.
Definition fd_items (fd: fdef) : list (kind * str) * str * list (list (kind * str) * value unit * bool) :=
  let '(ty, f, items) := fd in (ty, f, map (fun y => (stoks rp y, embs y, sopen y)) items).
(* well-formed: a non-empty run of simple type specifiers, and a body whose items are declarations `T x;` / `T x = e;` and
   well-formed statements (blocks inside may declare objects too) *)
Definition fwf (fd: fdef) : Prop :=
  let '(ty, f, items) := fd in ty <> [] /\ Forall (fun kv => kind_in (fst kv) tbl_TYPE_SPEC_SIMPLE = true) ty /\ swfl true items.
Definition prog_toks (p: list fdef) : list (kind * str) := concat (map (fun fd => fn_toks (fd_items fd)) p).
Definition prog_emb (p: list fdef) : value unit := VNode C_FileAST [VList (map (fun fd => fn_emb (fd_items fd)) p)] None.

Lemma fwf_ok : forall fd, fwf fd -> fn_ok P (fd_items fd).
Proof.
  intros [[ty f] items] (Hne & Hty & Hit). cbn [fd_items fn_ok]. split; [exact Hne|split; [exact Hty|]].
  exact (block_items_ok P rp (fun s => StreamLib.NoTD (scopes P s)) (pre_notd_SC P) true (pre_notd_notd P) items Hit).
Qed.

(* parse . generate = id at token level for WHOLE PROGRAMS, on the whole-parser model's top-level entry: for every list of
   function definitions `T f ( ) { ... }` over the statement language (declarations of objects included), whenever the lexer
   delivers exactly the tokens of the generated text - classified under the initial scope stack - and then the end of the
   input, parse_tokens returns, for all sufficiently large fuel, exactly the FileAST the text was generated from, has consumed
   every token, and has called _TokenStream.next() at most three times per token. *)
Theorem parse_of_generated_program : forall p, Forall fwf p ->
  forall items le eof file, RoundTrip.Spell P le (prog_toks p) -> StreamLib.UpR P [[]] items le -> length items = length le ->
  exists f0 N s', (forall fu, f0 <= fu -> parse_tokens P fu (init_pstate P items eof file) = Ok (N, s')) /\
    strip N = prog_emb p /\ idx P s' = length le /\ N.to_nat (ticks P s') <= 3 * length le.
Proof. intros p Hp. exact (parse_run_map P _ _ _ p (Forall_impl _ (fun fd H => fn_ExtS P _ (fwf_ok fd H)) Hp)). Qed.
End Prog.

(* the theorem applies to something: two functions, declarations, nested blocks:
   int main ( ) { int x = 1 ; unsigned long y ; y = x + 2 ; { char c = ( x , y ) ; } return y ; }   void g ( ) { } *)
Definition ex_prog : list fdef :=
  [([(K_INT, s2l "int")], s2l "main",
    [SDecl [(K_INT, s2l "int")] (s2l "x") (Some (XConst K_INT_CONST_DEC (s2l "1") (s2l "int")));
     SDecl [(K_UNSIGNED, s2l "unsigned"); (K_LONG, s2l "long")] (s2l "y") None;
     SExpr (XAsg (s2l "=") (XId (s2l "y")) (XBin (s2l "+") (XId (s2l "x")) (XConst K_INT_CONST_DEC (s2l "2") (s2l "int"))));
     SBlock [SDecl [(K_CHAR, s2l "char")] (s2l "c") (Some (XComma [XId (s2l "x"); XId (s2l "y")]))];
     SReturn (Some (XId (s2l "y")))]);
   ([(K_VOID, s2l "void")], s2l "g", [])].
Definition ex_prog_items : list (ParserBase.pitem nat) := map (fun kv => ParserBase.PTok nat (fst kv) (snd kv) 0 0) (prog_toks false ex_prog).
Definition ex_prog_toks : list (ParserBase.tok nat) := map (fun kv => mkTok nat (fst kv) (snd kv) 0) (prog_toks false ex_prog).
Example program_example :
  Forall fwf ex_prog /\ RoundTrip.Spell nat ex_prog_toks (prog_toks false ex_prog) /\
  StreamLib.UpR nat [[]] ex_prog_items ex_prog_toks /\ length ex_prog_items = length ex_prog_toks /\
  match parse_tokens nat 200 (init_pstate nat ex_prog_items 0 0) with
  | Ok (N, s') => strip N = prog_emb false ex_prog /\ idx nat s' = length ex_prog_toks /\ (N.to_nat (ticks nat s') <= 3 * length ex_prog_toks)%nat
  | _ => False
  end.
Proof.
  split; [repeat constructor; try discriminate; cbn; repeat split; solve [reflexivity | discriminate | repeat constructor]|].
  split; [vm_compute; reflexivity|]. split; [|split; [vm_compute; reflexivity|vm_compute; repeat split; lia]].
  unfold ex_prog_items, ex_prog_toks. vm_compute prog_toks. cbn [map fst snd].
  repeat (eapply UpR_cons; [vm_compute; reflexivity|]). apply UpR_nil.
Qed.

Inductive edecl :=
| EFun (ty: list (kind * str)) (f: str) (items: list st)
| EObj (ty: list (kind * str)) (x: str) (i: option ex).

Section Unit.
Variable P : Type.
Variable rp : bool.
Definition ewf (d: edecl) : Prop :=
  match d with
  | EFun ty f items => fwf (ty, f, items)
  | EObj ty x i => ty <> [] /\ Forall (fun kv => kind_in (fst kv) tbl_TYPE_SPEC_SIMPLE = true) ty /\ owf i
  end.
Definition etoks (d: edecl) : list (kind * str) :=
  match d with
  | EFun ty f items => fn_toks (fd_items rp (ty, f, items))
  | EObj ty x i => dtoks ty x (match i with Some e => (K_EQUALS, s2l "=") :: argt rp e | None => [] end)
  end.
Definition eemb (d: edecl) : value unit :=
  match d with
  | EFun ty f items => fn_emb (fd_items rp (ty, f, items))
  | EObj ty x i => dembed ty x (oemb i)
  end.
Definition unit_toks (u: list edecl) : list (kind * str) := concat (map etoks u).
Definition unit_emb (u: list edecl) : value unit := VNode C_FileAST [VList (map eemb u)] None.

Lemma ewf_ExtS : forall d, ewf d -> ExtS P (etoks d) (eemb d).
Proof.
  intros [ty f items|ty x i] Hw; cbn [ewf etoks eemb] in *.
  - apply fn_ExtS. apply (fwf_ok P rp). exact Hw.
  - destruct Hw as (Hne & Hty & Hi). exact (extdecl_obj P ty x _ _ Hne Hty (owf_init P rp i Hi)).
Qed.

(* parse(): every translation unit made of object declarations `T x;` / `T x = e;` and function definitions `T f ( ) { ... }`, in any
   order and number, followed by the end of the input, is parsed from the initial state to exactly its FileAST - one Decl / FuncDef per
   external declaration, in source order - consuming every token with at most three next() calls per token. *)
Theorem parse_of_generated_unit : forall u, Forall ewf u ->
  forall items le eof file, RoundTrip.Spell P le (unit_toks u) -> StreamLib.UpR P [[]] items le -> length items = length le ->
  exists f0 N s', (forall fu, f0 <= fu -> parse_tokens P fu (init_pstate P items eof file) = Ok (N, s')) /\
    strip N = unit_emb u /\ idx P s' = length le /\ N.to_nat (ticks P s') <= 3 * length le.
Proof. intros u Hu. exact (parse_run_map P _ etoks eemb u (Forall_impl _ ewf_ExtS Hu)). Qed.
End Unit.

(* `int counter = 0 ; unsigned long limit ; int next ( ) { counter = counter + 1 ; return counter ; } char flag = ( counter , 1 ) ; void g ( ) { }` *)
Definition ex_unit : list edecl :=
  [EObj [(K_INT, s2l "int")] (s2l "counter") (Some (XConst K_INT_CONST_DEC (s2l "0") (s2l "int")));
   EObj [(K_UNSIGNED, s2l "unsigned"); (K_LONG, s2l "long")] (s2l "limit") None;
   EFun [(K_INT, s2l "int")] (s2l "next")
     [SExpr (XAsg (s2l "=") (XId (s2l "counter")) (XBin (s2l "+") (XId (s2l "counter")) (XConst K_INT_CONST_DEC (s2l "1") (s2l "int"))));
      SReturn (Some (XId (s2l "counter")))];
   EObj [(K_CHAR, s2l "char")] (s2l "flag") (Some (XComma [XId (s2l "counter"); XConst K_INT_CONST_DEC (s2l "1") (s2l "int")]));
   EFun [(K_VOID, s2l "void")] (s2l "g") []].
Definition ex_unit_items : list (ParserBase.pitem nat) := map (fun kv => ParserBase.PTok nat (fst kv) (snd kv) 0 0) (unit_toks false ex_unit).
Definition ex_unit_toks : list (ParserBase.tok nat) := map (fun kv => mkTok nat (fst kv) (snd kv) 0) (unit_toks false ex_unit).
Example unit_example :
  Forall ewf ex_unit /\ RoundTrip.Spell nat ex_unit_toks (unit_toks false ex_unit) /\
  StreamLib.UpR nat [[]] ex_unit_items ex_unit_toks /\ length ex_unit_items = length ex_unit_toks /\
  match parse_tokens nat 200 (init_pstate nat ex_unit_items 0 0) with
  | Ok (N, s') => strip N = unit_emb false ex_unit /\ idx nat s' = length ex_unit_toks /\ (N.to_nat (ticks nat s') <= 3 * length ex_unit_toks)%nat
  | _ => False
  end.
Proof.
  split; [repeat constructor; try discriminate; cbn; repeat split; solve [reflexivity | discriminate | repeat constructor]|].
  split; [vm_compute; reflexivity|]. split; [|split; [vm_compute; reflexivity|vm_compute; repeat split; lia]].
  unfold ex_unit_items, ex_unit_toks. vm_compute unit_toks. cbn [map fst snd].
  repeat (eapply UpR_cons; [vm_compute; reflexivity|]). apply UpR_nil.
Qed.

