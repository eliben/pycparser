(* C02 on the whole-parser model: the two loops of _parse_binary_expression, as they appear in the
   71-function parser model (ParserMain.p_binary_climb / p_binary_inner, monadic, reading the real
   token stream, operands parsed by p_cast_expression), build exactly a tree of the stratified C
   grammar (ClimbProofs.D) over the operator tokens they consumed and the cast-expressions parsed
   between them -- for every token stream, every state and every fuel. *)
From Coq Require Import List NArith ZArith Bool Arith Lia.
Import ListNotations.
From PV Require Import Regex Base LexTables ParserTables AstDefs AstSpec AstImpl PyRepr NodeModel ParserBase ParserDecl ParserMain PostLib ClimbProofs StreamLib.
Open Scope nat_scope.

Section BR.
Variable P : Type.
Notation pstate := (pstate P).
Notation node := (node P).
Notation tok := (tok P).

Definition bprec (t: tok) : nat := match prec_of (tk t) with Some p => p | None => 0 end.

Notation tree := (tree node tok).
Notation D := (D node tok bprec).

Fixpoint to_node (t: tree) : node :=
  match t with
  | Leaf _ _ a => a
  | Bin _ _ o l r =>
    VNode C_BinaryOp [VStr (tv o); to_node l; to_node r]
          (match get_coord P (to_node l) with Some co => co | None => None end)
  end.

(* SeqT s l n s': from state s the parser read, in order, the operator tokens and cast-expressions
   of l and arrived in state s' (peeks in between are silent); n is the number of token reads
   (_TokenStream.next() calls, speculative ones included) spent INSIDE the operand runs *)
Inductive SeqT : pstate -> list (tok * node) -> Z -> pstate -> Prop :=
| Seq_nil : forall s, SeqT s [] 0%Z s
| Seq_peek : forall s x s1 l n s', peek P s = Ok (x, s1) -> SeqT s1 l n s' -> SeqT s l n s'
| Seq_cons : forall s t s1 s2 f a s3 l n s',
    peek P s = Ok (Some t, s1) -> prec_of (tk t) <> None -> advance P s1 = Ok (t, s2) ->
    p_cast_expression P f s2 = Ok (a, s3) -> SeqT s3 l n s' ->
    SeqT s ((t, a) :: l) (n + (Z.of_N (ticks P s3) - Z.of_N (ticks P s2)))%Z s'.
Definition Seq (s: pstate) (l: list (tok * node)) (s': pstate) : Prop := exists n, SeqT s l n s'.

Lemma SeqT_app : forall s l1 n1 s1, SeqT s l1 n1 s1 -> forall l2 n2 s2, SeqT s1 l2 n2 s2 -> SeqT s (l1 ++ l2) (n1 + n2)%Z s2.
Proof.
  intros s l1 n1 s1 H. induction H as [s|s x sa l n s' Hp H IH|s t sa sb f a sc l n s' Hp Hprec Ha Hc H IH]; intros l2 n2 s2 H2.
  - exact H2.
  - eapply Seq_peek; [exact Hp|]. apply IH. exact H2.
  - cbn [app]. replace (n + (Z.of_N (ticks P sc) - Z.of_N (ticks P sb)) + n2)%Z with ((n + n2) + (Z.of_N (ticks P sc) - Z.of_N (ticks P sb)))%Z by lia.
    eapply Seq_cons; eauto.
Qed.
Lemma Seq_app : forall s l1 s1, Seq s l1 s1 -> forall l2 s2, Seq s1 l2 s2 -> Seq s (l1 ++ l2) s2.
Proof. intros s l1 s1 [n1 H1] l2 s2 [n2 H2]. exists (n1 + n2)%Z. eapply SeqT_app; eauto. Qed.

Lemma SeqT_head : forall s o a l n s', SeqT s ((o, a) :: l) n s' -> exists s1, peek P s = Ok (Some o, s1) /\ prec_of (tk o) <> None.
Proof.
  intros s o a l n s' H. remember ((o, a) :: l) as L eqn:EL. revert o a l EL.
  induction H as [s|s x sa l0 n s' Hp H IH|s t sa sb f a0 sc l0 n s' Hp Hprec Ha Hc H IH]; intros o a l EL.
  - discriminate.
  - destruct (IH _ _ _ EL) as [s1 [H1 H2]]. pose proof (peek_idem P _ _ _ Hp) as Hi. rewrite Hi in H1. injection H1 as -> _.
    exists sa. split; [exact Hp|exact H2].
  - injection EL as -> -> ->. exists sa. split; assumption.
Qed.

(* the loops themselves read every operator token exactly once *)
Lemma SeqT_ticks : forall s l n s', SeqT s l n s' ->
  Z.of_N (ticks P s') = (Z.of_N (ticks P s) + Z.of_nat (length l) + n)%Z.
Proof.
  intros s l n s' H. induction H as [s|s x sa l n s' Hp H IH|s t sa sb f a sc l n s' Hp Hprec Ha Hc H IH].
  - cbn. lia.
  - rewrite IH, (proj2 (peek_spec P _ _ _ Hp)). reflexivity.
  - rewrite IH. destruct (peek_spec P _ _ _ Hp) as [_ E1]. destruct (advance_after_peek P _ _ _ _ _ Hp Ha) as [_ E2].
    cbn [length]. rewrite E2, E1. lia.
Qed.

Definition st_head (R: nat -> Prop) (s: pstate) : Prop :=
  forall o s1 p, peek P s = Ok (Some o, s1) -> prec_of (tk o) = Some p -> R p.

Lemma head_le_of_state : forall q s l s', st_head (fun p => p <= q) s -> Seq s l s' -> head_le node tok bprec q l.
Proof.
  intros q s [|[o a] l] s' Hh [n HS]; [exact I|]. cbn. destruct (SeqT_head _ _ _ _ _ _ HS) as [s1 [Hp Hn]].
  unfold bprec. destruct (prec_of (tk o)) as [p|] eqn:E; [|congruence]. eapply Hh; eauto.
Qed.

(* a loop that peeks x and returns at once has read nothing; what made it stop is then true of the state it leaves *)
Lemma stop : forall (R: nat -> Prop) m (L: tree) s x s1 t s',
  peek P s = Ok (x, s1) -> ret P (to_node L) s1 = Ok (t, s') -> (forall o p, x = Some o -> prec_of (tk o) = Some p -> R p) ->
  exists l T, t = to_node T /\ Seq s l s' /\ D m L l T /\ st_head R s'.
Proof.
  intros R m L s x s1 t s' Ep Hr why. apply ret_Ok in Hr as [-> ->]. exists [], L. repeat split.
  - exists 0%Z. eapply Seq_peek; [exact Ep|apply Seq_nil].
  - constructor.
  - intros o sx p Hp. rewrite (peek_idem P _ _ _ Ep) in Hp. injection Hp as -> _. apply why. reflexivity.
Qed.

Definition sound_climb (f: nat) : Prop := forall m L s t s',
  p_binary_climb P f m (to_node L) s = Ok (t, s') ->
  exists l T, t = to_node T /\ Seq s l s' /\ D m L l T /\ st_head (fun p => p < m) s'.
Definition sound_inner (f: nat) : Prop := forall p R0 s t s',
  p_binary_inner P f p (to_node R0) s = Ok (t, s') ->
  exists l T, t = to_node T /\ Seq s l s' /\ D (S p) R0 l T /\ st_head (fun q => q <= p) s'.

Lemma climb_eq : forall f m lhs,
  p_binary_climb P (S f) m lhs =
  bind P (peek P) (fun t =>
    match t with
    | None => ret P lhs
    | Some t' =>
      match prec_of (tk t') with
      | None => ret P lhs
      | Some prec =>
        if Nat.ltb prec m then ret P lhs
        else
          bind P (advance P) (fun _ =>
          bind P (p_cast_expression P f) (fun rhs0 =>
          bind P (p_binary_inner P f prec rhs0) (fun rhs =>
          bind P (coordA P lhs) (fun lc =>
          p_binary_climb P f m (mkN P C_BinaryOp [VStr (tv t'); lhs; rhs] lc)))))
      end
    end).
Proof. reflexivity. Qed.

Lemma inner_eq : forall f p rhs,
  p_binary_inner P (S f) p rhs =
  bind P (peek P) (fun t =>
    match t with
    | None => ret P rhs
    | Some t' =>
      match prec_of (tk t') with
      | None => ret P rhs
      | Some next_prec =>
        if Nat.ltb p next_prec then
          bind P (p_binary_climb P f next_prec rhs) (fun rhs' => p_binary_inner P f p rhs')
        else ret P rhs
      end
    end).
Proof. reflexivity. Qed.

Lemma refine_sound : forall f, sound_climb f /\ sound_inner f.
Proof.
  induction f as [|f [IHc IHi]]; split.
  - intros m L s t s' H. discriminate.
  - intros p R0 s t s' H. discriminate.
  - intros m L s t s' H. rewrite climb_eq in H. apply bind_Ok in H as (x & s1 & Ep & H).
    destruct x as [t'|]; [destruct (prec_of (tk t')) as [prec|] eqn:Eprec; [destruct (Nat.ltb_spec prec m) as [Hlt|Hge]|]|].
    + eapply stop; [exact Ep|exact H|]. intros ? p [= <-] E. rewrite Eprec in E. injection E as <-. exact Hlt.
    + apply bind_Ok in H as (x & s2 & Ea & H). destruct (advance_after_peek P _ _ _ _ _ Ep Ea) as [[= <-] _].
      apply bind_Ok in H as (rhs0 & s3 & Ec & H). apply bind_Ok in H as (rhs & s4 & Ei & H).
      change rhs0 with (to_node (Leaf node tok rhs0)) in Ei. apply IHi in Ei as (l1 & R & -> & HS1 & HD1 & Hh1).
      apply bind_Ok in H as (lc & s5 & Eco & H). apply coordA_Ok in Eco as [Eco ->].
      assert (Enode: mkN P C_BinaryOp [VStr (tv t'); to_node L; to_node R] lc = to_node (Bin node tok t' L R))
        by (cbn [to_node]; rewrite Eco; reflexivity).
      rewrite Enode in H. apply IHc in H as (l2 & T & -> & HS2 & HD2 & Hh2).
      assert (prec = bprec t') as -> by (unfold bprec; rewrite Eprec; reflexivity).
      exists (((t', rhs0) :: l1) ++ l2), T. repeat split; [| |exact Hh2].
      * destruct (Seq_app _ _ _ HS1 _ _ HS2) as [n12 H12]. eexists. eapply Seq_cons; [exact Ep|congruence|exact Ea|exact Ec|exact H12].
      * apply (D_op node tok bprec _ _ _ _ _ _ _ _ Hge HD1 HD2). exact (head_le_of_state _ _ _ _ Hh1 HS2).
    + eapply stop; [exact Ep|exact H|]. intros ? p [= <-] E. congruence.
    + eapply stop; [exact Ep|exact H|]. intros ? p [=].
  - intros p R0 s t s' H. rewrite inner_eq in H. apply bind_Ok in H as (x & s1 & Ep & H).
    destruct x as [t'|]; [destruct (prec_of (tk t')) as [next|] eqn:Eprec; [destruct (Nat.ltb_spec p next) as [Hlt|Hge]|]|].
    + apply bind_Ok in H as (rhs' & sr & Ec & H). apply IHc in Ec as (l1 & T1 & -> & HS1 & HD1 & Hh1).
      apply IHi in H as (l2 & T & -> & HS2 & HD2 & Hh2).
      exists (l1 ++ l2), T. repeat split; [| |exact Hh2].
      * destruct (Seq_app _ _ _ HS1 _ _ HS2) as [n12 H12]. exists n12. eapply Seq_peek; [exact Ep|exact H12].
      * eapply (compose node tok bprec); [exact HD2|exact HD1|lia|].
        eapply head_le_of_state; [|exact HS2]. intros o sx q Hp Ho. specialize (Hh1 o sx q Hp Ho). cbv beta in Hh1. lia.
    + eapply stop; [exact Ep|exact H|]. intros ? q [= <-] E. rewrite Eprec in E. injection E as <-. exact Hge.
    + eapply stop; [exact Ep|exact H|]. intros ? q [= <-] E. congruence.
    + eapply stop; [exact Ep|exact H|]. intros ? q [=].
Qed.

(* _parse_binary_expression(): entered with min_prec = 0 on the first cast-expression.  The node it
   returns is THE tree the stratified grammar assigns to the operator/operand sequence it read
   (the grammar is unambiguous: ClimbProofs.D_unique), and it stops exactly where no binary
   operator follows. *)
Theorem binary_expression_refines : forall f lhs0 s t s',
  p_binary_climb P f 0 lhs0 s = Ok (t, s') ->
  exists l T, t = to_node T /\ Seq s l s' /\ D 0 (Leaf node tok lhs0) l T /\
              (forall T', D 0 (Leaf node tok lhs0) l T' -> T' = T) /\
              (forall o s1, peek P s' = Ok (Some o, s1) -> prec_of (tk o) = None).
Proof.
  intros f lhs0 s t s' H. destruct (refine_sound f) as [Hc _].
  change lhs0 with (to_node (Leaf node tok lhs0)) in H. apply Hc in H.
  destruct H as (l & T & Ht & HS & HD & Hh). exists l, T. repeat split; try assumption.
  - intros T' HD'. eapply D_unique; eassumption.
  - intros o s1 Hp. destruct (prec_of (tk o)) as [p|] eqn:E; [|reflexivity].
    destruct (Nat.nlt_0_r p (Hh o s1 p Hp E)).
Qed.

(* C16: the precedence-climbing loops never re-read a token.  The token reads of a whole binary
   expression = one per operator + what the operand runs (p_cast_expression) spend themselves. *)
Theorem binary_expression_cost : forall f lhs0 s t s',
  p_binary_climb P f 0 lhs0 s = Ok (t, s') ->
  exists l n, SeqT s l n s' /\ Z.of_N (ticks P s') = (Z.of_N (ticks P s) + Z.of_nat (length l) + n)%Z.
Proof.
  intros f lhs0 s t s' H. destruct (binary_expression_refines _ _ _ _ _ H) as (l & T & _ & [n HS] & _).
  exists l, n. split; [exact HS|apply SeqT_ticks; exact HS].
Qed.
End BR.
