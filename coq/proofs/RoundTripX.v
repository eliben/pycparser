(* C07, token level, a larger expression language: identifiers, constants, binary operators, the prefix
   operators - + ! ~ * &, prefix and postfix ++ and --, sizeof of an expression and of a type name, casts
   (the type name a run of simple type specifiers or a typedef name), subscripts, member accesses
   (. and ->), function calls, the conditional operator, (compound) assignments and comma expressions,
   nested in any way.  [xt rp e] is the token sequence of the text CGenerator prints for e (operands
   parenthesised exactly as visit_UnaryOp / visit_Cast / visit_ArrayRef / visit_StructRef / visit_FuncCall /
   visit_TernaryOp / visit_Assignment / visit_BinaryOp / visit_ExprList / _visit_expr do); whenever the
   whole-parser model finds these tokens followed by a token that cannot continue an expression,
   p_expression returns exactly e. *)
From Coq Require Import String.
From Coq Require Import List NArith Bool Arith Lia.
Import ListNotations.
From PV Require Import Regex Base AstDefs AstSpec AstImpl GenTables NodeModel Generator ClimbProofs ClimbComplete GenParen GenBinop.
From PV Require Import LexTables ParserTables PyRepr ParserBase ParserDecl ParserMain RegexLemmas LexerProofs TableProofs.
From PV Require Import BinaryRefine ExprShape UnaryShape CoordProofs StreamLib RoundTrip Triple RoundTripGen TypeName.
Open Scope nat_scope.

Inductive ex :=
| XId (a: str)
| XConst (k: kind) (v: str) (ty: str)
| XBin (o: str) (l r: ex)
| XUn (o: str) (e: ex)
| XPre (o: str) (e: ex)          (* ++e, --e *)
| XPost (o: str) (e: ex)         (* e++, e-- : the AST op is "p" ++ o *)
| XSizeof (e: ex)                (* sizeof(e), e an expression *)
| XIdx (b i: ex)
| XMem (b: ex) (ty: str) (f: str)
| XCall (b: ex) (args: list ex)
| XCond (c t f: ex)
| XAsg (o: str) (l r: ex)
| XComma (es: list ex)
| XCast (ty: list (kind * str)) (e: ex)      (* (type-name) e; the type name: see tyok *)
| XSizeofT (ty: list (kind * str)).         (* sizeof(type-name) *)

Definition simple (e: ex) : bool := match e with XId _ | XConst _ _ _ | XIdx _ _ | XMem _ _ _ | XCall _ _ => true | _ => false end.
Definition isasg (e: ex) : bool := match e with XAsg _ _ _ => true | _ => false end.
Definition iscomma (e: ex) : bool := match e with XComma _ => true | _ => false end.

Fixpoint size (e: ex) : nat :=
  match e with
  | XId _ | XConst _ _ _ => 1
  | XSizeofT _ => 2
  | XBin _ l r => S (size l + size r)
  | XUn _ x | XPre _ x | XPost _ x | XSizeof x | XCast _ x => S (size x)
  | XIdx b i => S (size b + size i)
  | XMem b _ _ => S (size b)
  | XCall b args => S (size b + list_sum (map size args))
  | XCond c t f => S (size c + size t + size f)
  | XAsg _ l r => S (size l + size r)
  | XComma es => S (list_sum (map size es))
  end.

Fixpoint embx (e: ex) : value unit :=
  match e with
  | XId a => VNode C_ID [VStr a] None
  | XConst _ v ty => VNode C_Constant [VStr ty; VStr v] None
  | XBin o l r => VNode C_BinaryOp [VStr o; embx l; embx r] None
  | XUn o x | XPre o x => VNode C_UnaryOp [VStr o; embx x] None
  | XPost o x => VNode C_UnaryOp [VStr (112%N :: o); embx x] None
  | XSizeof x => VNode C_UnaryOp [VStr (s2l "sizeof"); embx x] None
  | XIdx b i => VNode C_ArrayRef [embx b; embx i] None
  | XMem b ty f => VNode C_StructRef [embx b; VStr ty; VNode C_ID [VStr f] None] None
  | XCall b args => VNode C_FuncCall [embx b; match args with [] => VNone | _ => VNode C_ExprList [VList (map embx args)] None end] None
  | XCond c t f => VNode C_TernaryOp [embx c; embx t; embx f] None
  | XAsg o l r => VNode C_Assignment [VStr o; embx l; embx r] None
  | XComma es => VNode C_ExprList [VList (map embx es)] None
  | XCast ty x => VNode C_Cast [tn_emb (map snd ty); embx x] None
  | XSizeofT ty => VNode C_UnaryOp [VStr (s2l "sizeof"); tn_emb (map snd ty)] None
  end.

Lemma embx_node : forall e, exists c fs co, embx e = VNode c fs co.
Proof. intros e; destruct e; cbn; eexists; eexists; eexists; reflexivity. Qed.

Definition unop_ok (o: str) : bool :=
  match punct_kind_l o with Some k => kind_in k [K_AND; K_TIMES; K_PLUS; K_MINUS; K_NOT; K_LNOT] | None => false end.
Definition incdec_ok (o: str) : bool :=
  match punct_kind_l o with Some k => kind_eqb k K_PLUSPLUS || kind_eqb k K_MINUSMINUS | None => false end.
Definition asgop_ok (o: str) : bool :=
  match punct_kind_l o with Some k => kind_in k tbl_ASSIGNMENT_OPS | None => false end.
Definition memop_ok (o: str) : bool :=
  match punct_kind_l o with Some k => kind_eqb k K_PERIOD || kind_eqb k K_ARROW | None => false end.
(* the token kind of a constant and the type the parser derives from its spelling *)
Definition const_ok (k: kind) (v ty: str) : bool :=
  if kind_in k tbl_INT_CONST then match int_const_type (kind_eqb k K_INT_CONST_CHAR) v with Some t => str_eqb t ty | None => false end
  else if kind_in k tbl_FLOAT_CONST then match float_const_type v with Some t => str_eqb t ty | None => false end
  else kind_in k tbl_CHAR_CONST && str_eqb ty (s2l "char").

Definition tyok (ty: list (kind * str)) : Prop :=
  (ty <> [] /\ Forall (fun kv => kind_in (fst kv) tbl_TYPE_SPEC_SIMPLE = true) ty) \/ (exists v, ty = [(K_TYPEID, v)]).

Fixpoint wf (e: ex) : Prop :=
  match e with
  | XId _ => True
  | XConst k v ty => const_ok k v ty = true
  | XBin o l r => prec_lookup_s o <> None /\ wf l /\ wf r
  | XUn o x => unop_ok o = true /\ wf x
  | XPre o x | XPost o x => incdec_ok o = true /\ wf x
  | XSizeof x => wf x
  | XIdx b i => wf b /\ wf i
  | XMem b ty _ => memop_ok ty = true /\ wf b
  | XCall b args => wf b /\ (fix wl (l: list ex) : Prop := match l with [] => True | x :: r => wf x /\ wl r end) args
  | XCond c t f => wf c /\ wf t /\ wf f
  | XAsg o l r => asgop_ok o = true /\ isasg l = false /\ iscomma l = false /\ wf l /\ wf r
  | XComma es => 2 <= length es /\ (fix wl (l: list ex) : Prop := match l with [] => True | x :: r => wf x /\ wl r end) es
  | XCast ty x => tyok ty /\ wf x
  | XSizeofT ty => tyok ty
  end.
Definition wfl (l: list ex) : Prop := (fix wl (l: list ex) : Prop := match l with [] => True | x :: r => wf x /\ wl r end) l.

Lemma all_in : forall A (Q: A -> Prop) l y,
  (fix al (l: list A) : Prop := match l with [] => True | x :: r => Q x /\ al r end) l -> In y l -> Q y.
Proof. induction l as [|z r IH]; intros y Hl Hy; [destruct Hy|]. destruct Hy as [->|Hy]; [exact (proj1 Hl)|exact (IH y (proj2 Hl) Hy)]. Qed.

Section Toks.
Variable rp : bool.
Definition keepLx (o: str) (l: ex) : bool := match l with XBin ol _ _ => rp && (gprec o <=? gprec ol) | _ => false end.
Definition keepRx (o: str) (r: ex) : bool := match r with XBin orr _ _ => rp && (gprec o <? gprec orr) | _ => false end.
Definition vx (e: ex) (te: list (kind * str)) : list (kind * str) := if iscomma e then parkv te else te.     (* _visit_expr *)
Definition wrap (e: ex) (te: list (kind * str)) : list (kind * str) := if simple e then te else parkv (vx e te).
Fixpoint commas (l: list (list (kind * str))) : list (kind * str) :=
  match l with [] => [] | [x] => x | x :: r => x ++ (K_COMMA, s2l ",") :: commas r end.

Fixpoint xt (e: ex) : list (kind * str) :=
  match e with
  | XId a => [(K_ID, a)]
  | XConst k v _ => [(k, v)]
  | XBin o l r => (if keepLx o l then xt l else wrap l (xt l)) ++ (opk o, o) :: (if keepRx o r then xt r else wrap r (xt r))
  | XUn o x | XPre o x => (opk o, o) :: wrap x (xt x)
  | XPost o x => wrap x (xt x) ++ [(opk o, o)]
  | XSizeof x => (K_SIZEOF, s2l "sizeof") :: parkv (xt x)
  | XIdx b i => wrap b (xt b) ++ (K_LBRACKET, s2l "[") :: xt i ++ [(K_RBRACKET, s2l "]")]
  | XMem b ty f => wrap b (xt b) ++ [(opk ty, ty); (K_ID, f)]
  | XCall b args => wrap b (xt b) ++ (K_LPAREN, s2l "(") :: commas (map (fun a => vx a (xt a)) args) ++ [(K_RPAREN, s2l ")")]
  | XCond c t f => parkv (vx c (xt c)) ++ (K_CONDOP, s2l "?") :: parkv (vx t (xt t)) ++ (K_COLON, s2l ":") :: parkv (vx f (xt f))
  | XAsg o l r => xt l ++ (opk o, o) :: (if isasg r then parkv (xt r) else vx r (xt r))
  | XComma es => commas (map (fun a => vx a (xt a)) es)
  | XCast ty x => (K_LPAREN, s2l "(") :: ty ++ (K_RPAREN, s2l ")") :: wrap x (xt x)
  | XSizeofT ty => (K_SIZEOF, s2l "sizeof") :: (K_LPAREN, s2l "(") :: ty ++ [(K_RPAREN, s2l ")")]
  end.
Definition opnd (e: ex) : list (kind * str) := wrap e (xt e).
Definition argt (e: ex) : list (kind * str) := vx e (xt e).

(* the maximal tree of binary operators at the top of e; its leaves are the operands *)
Fixpoint to_gt (e: ex) : GenParen.gt ex str :=
  match e with XBin o l r => GBin ex str o (to_gt l) (to_gt r) | _ => GLeaf ex str e end.

Lemma xt_bin : forall e, xt e = match e with XBin _ _ _ => kvg rp ex opnd (to_gt e) | _ => xt e end.
Proof.
  induction e as [a|k v ty|o l IHl r IHr|o x IHx|o x IHx|o x IHx|x IHx|b IHb i IHi|b IHb ty f|b IHb args|c IHc t IHt f IHf|o l IHl r IHr|es|ty x IHx|ty]; try reflexivity.
  cbn [xt to_gt kvg].
  assert (HL: (if keepLx o l then xt l else wrap l (xt l)) =
              (if GenParen.keepL ex str gprec rp o (to_gt l) then kvg rp ex opnd (to_gt l)
               else match to_gt l with GLeaf _ _ b => opnd b | GBin _ _ _ _ _ => parkv (kvg rp ex opnd (to_gt l)) end)).
  { destruct l; try reflexivity. cbn [keepLx to_gt GenParen.keepL]. rewrite IHl. cbn [to_gt]. destruct (rp && (gprec o <=? gprec o0)); reflexivity. }
  assert (HRr: (if keepRx o r then xt r else wrap r (xt r)) =
              (if GenParen.keepR ex str gprec rp o (to_gt r) then kvg rp ex opnd (to_gt r)
               else match to_gt r with GLeaf _ _ b => opnd b | GBin _ _ _ _ _ => parkv (kvg rp ex opnd (to_gt r)) end)).
  { destruct r; try reflexivity. cbn [keepRx to_gt GenParen.keepR]. rewrite IHr. cbn [to_gt]. destruct (rp && (gprec o <? gprec o0)); reflexivity. }
  rewrite HL, HRr. reflexivity.
Qed.

Lemma embx_gt : forall e, embx e = embg ex embx (to_gt e).
Proof. induction e; try reflexivity. cbn [embx to_gt embg]. rewrite <- IHe1, <- IHe2. reflexivity. Qed.
End Toks.

Lemma unop_kind_facts : forall k, kind_in k [K_AND; K_TIMES; K_PLUS; K_MINUS; K_NOT; K_LNOT] = true ->
  kind_eqb k K_LPAREN = false /\ (okind_is (Some k) K_PLUSPLUS || okind_is (Some k) K_MINUSMINUS) = false /\
  okind_in (Some k) [K_AND; K_TIMES; K_PLUS; K_MINUS; K_NOT; K_LNOT] = true /\
  startk k = true /\ kind_eqb k K_LBRACE = false.
Proof. intros k H. destruct k; vm_compute in H; try discriminate H; vm_compute; repeat split. Qed.

Lemma asg_kind_facts : forall k, kind_in k tbl_ASSIGNMENT_OPS = true -> cstop k = true.
Proof. intros k H. destruct k; vm_compute in H; try discriminate H; vm_compute; reflexivity. Qed.

Lemma mem_kind_facts : forall k, kind_eqb k K_PERIOD || kind_eqb k K_ARROW = true ->
  kind_eqb k K_LBRACKET = false /\ kind_eqb k K_LPAREN = false /\ (okind_is (Some k) K_PERIOD || okind_is (Some k) K_ARROW) = true.
Proof. intros k H. destruct k; vm_compute in H; try discriminate H; vm_compute; repeat split. Qed.

Lemma incdec_kind_facts : forall k, kind_eqb k K_PLUSPLUS || kind_eqb k K_MINUSMINUS = true ->
  kind_eqb k K_LPAREN = false /\ (okind_is (Some k) K_PLUSPLUS || okind_is (Some k) K_MINUSMINUS) = true /\
  kind_eqb k K_LBRACKET = false /\ (okind_is (Some k) K_PERIOD || okind_is (Some k) K_ARROW) = false /\
  startk k = true /\ kind_eqb k K_LBRACE = false.
Proof. intros k H. destruct k; vm_compute in H; try discriminate H; vm_compute; repeat split. Qed.

Lemma const_kind_facts : forall k, kind_in k tbl_INT_CONST || kind_in k tbl_FLOAT_CONST || kind_in k tbl_CHAR_CONST = true ->
  okind_is (Some k) K_ID = false /\ startk k = true /\ kind_eqb k K_LBRACE = false /\ kind_eqb k K_LPAREN = false /\ unary_pass k = true.
Proof. intros k H. destruct k; vm_compute in H; try discriminate H; vm_compute; repeat split. Qed.

Lemma const_ok_kind : forall k v ty, const_ok k v ty = true ->
  kind_in k tbl_INT_CONST || kind_in k tbl_FLOAT_CONST || kind_in k tbl_CHAR_CONST = true.
Proof.
  intros k v ty H. unfold const_ok in H. destruct (kind_in k tbl_INT_CONST); [reflexivity|].
  destruct (kind_in k tbl_FLOAT_CONST); [reflexivity|]. apply andb_true_iff in H. destruct H as [H _]. rewrite H. reflexivity.
Qed.

(* what unop_ok, incdec_ok, asgop_ok, memop_ok say of an operator's token kind *)
Lemma ok_opk : forall (p: kind -> bool) o, match punct_kind_l o with Some k => p k | None => false end = true -> p (opk o) = true.
Proof. intros p o. unfold opk. destruct (punct_kind_l o); [exact (fun H => H)|discriminate]. Qed.

(* the first token is no prefix operator, sizeof or _Alignof, and after a first `(` nothing follows that starts a declaration:
   p_unary_expression passes such a sequence on to the postfix-expression, and a "( type-name )" attempt gives up in front of it *)
Definition head_idlp (kvs: list (kind * str)) : Prop :=
  exists k v rest, kvs = (k, v) :: rest /\ unary_pass k = true /\
    (kind_eqb k K_LPAREN = true -> exists k2 v2 rest2, rest = (k2, v2) :: rest2 /\ kind_in k2 tbl_DECL_START = false).
Lemma head_idlp_app : forall x y, head_idlp x -> head_idlp (x ++ y).
Proof.
  intros x y [k [v [rest [-> [H H3]]]]]. exists k, v, (rest ++ y). split; [reflexivity|]. split; [exact H|].
  intros Hl. destruct (H3 Hl) as [k2 [v2 [rest2 [-> H4]]]]. exists k2, v2, (rest2 ++ y). split; [reflexivity|exact H4].
Qed.
Lemma head_idlp_parkv : forall x, first_ok x -> head_idlp (parkv x).
Proof.
  intros x [k [v [rest [-> [H1 _]]]]]. unfold parkv. eexists. eexists. eexists. split; [reflexivity|]. split; [reflexivity|]. intros _.
  exists k, v, (rest ++ [(K_RPAREN, s2l ")")]). split; [reflexivity|exact (proj1 (startk_facts _ H1))].
Qed.
Lemma head_idlp_tok : forall k v rest, unary_pass k = true -> kind_eqb k K_LPAREN = false -> head_idlp ((k, v) :: rest).
Proof. intros k v rest H1 H2. exists k, v, rest. split; [reflexivity|split; [exact H1|intros E; congruence]]. Qed.
Lemma first_ok_paren : forall v k v2 rest, kind_eqb k K_LBRACE = false -> first_ok ((K_LPAREN, v) :: (k, v2) :: rest).
Proof. intros v k v2 rest H. eexists; eexists; eexists. split; [reflexivity|split; [reflexivity|split; [reflexivity|intros _; eexists; eexists; eexists; split; [reflexivity|exact H]]]]. Qed.
Lemma first_ok_tok : forall k v rest, startk k = true -> kind_eqb k K_LBRACE = false -> kind_eqb k K_LPAREN = false -> first_ok ((k, v) :: rest).
Proof. intros k v rest H1 H2 H3. exists k, v, rest. split; [reflexivity|split; [exact H1|split; [exact H2|intros E; congruence]]]. Qed.

Section PX.
Variable P : Type.
Variable rp : bool.
Notation pstate := (ParserBase.pstate P).
Notation tok := (ParserBase.tok P).
Notation Up := (StreamLib.Up P).
Notation Spell := (RoundTrip.Spell P).
Notation CastS := (CastS P).
Notation CondS := (CondS P).
Notation AsgS := (AsgS P).
Notation ExprS := (ExprS P).
Notation Tr := (Tr P (anyst P)).
Notation LTr := (LevelS_Tr P (anyst P) _ _ _ _).

Lemma head_idlp_toks : forall kvs (le rest: list tok), head_idlp kvs -> Spell le kvs -> hd_ok P (le ++ rest).
Proof.
  intros kvs le rest [k [v [r [-> [Hp Hlp]]]]] HS. destruct (RoundTrip.Spell_cons_inv P _ _ _ _ HS) as [x [tl [-> [Hk [_ HS1]]]]].
  exists x, (tl ++ rest). rewrite Hk. split; [reflexivity|split; [exact Hp|intros El]]. destruct (Hlp El) as [k2 [v2 [r2 [-> Hd]]]].
  destruct (RoundTrip.Spell_cons_inv P _ _ _ _ HS1) as [x2 [tl2 [-> [Hk2 _]]]]. exists x2, (tl2 ++ rest). split; [reflexivity|rewrite Hk2; exact Hd].
Qed.

Definition UnaryS := LevelS P (p_unary_expression P) quiet.

(* the "( type-name )" attempt of p_cast_expression gives up at once *)
Lemma unary_to_cast : forall k v kvs X, kind_eqb k K_LPAREN = false -> UnaryS ((k, v) :: kvs) X -> CastS ((k, v) :: kvs) X.
Proof.
  intros k v kvs X Hk HUn. apply Tr_LevelS. intros s la n l HS HU Hq _.
  destruct (RoundTrip.Spell_cons_inv P _ _ _ _ HS) as [t [la' [-> [Hkt _]]]].
  destruct (tptn_no_paren_c P s t _ HU) as [s1 [H1 [HU1 HS1]]]; [rewrite Hkt; exact Hk|].
  eapply Ev_S; [apply (cast_eq P)|]. apply Ev_bind. apply (Ev_const P _ _ _ _ _ _ H1). cbv beta iota.
  apply (Ev_mono _ _ _ _ _ _ (HUn s1 (t :: la') n l HS HU1 Hq)). intros N s' (HU' & HN & HR). split; [exact HU'|split; [exact HN|cost_tac]].
Qed.

(* the two prefix-operator branches of p_unary_expression: they differ in the production [run] of the operand only *)
Lemma prefix_tr : forall (run: nat -> M P (ParserBase.node P)) o kvs X, (exists c fs co, X = VNode c fs co) -> LevelS P run quiet kvs X ->
  Tr (fun f => bind P (advance P) (fun t => bind P (run f) (fun e => bind P (coordA P e) (fun ec => ret P (mkN P C_UnaryOp [VStr (tv t); e] ec)))))
     ((opk o, o) :: kvs) (fun k => quiet k = true) (fun N => strip N = VNode C_UnaryOp [VStr o; X] None).
Proof.
  intros run o kvs X [c [fs [co EX]]] HC. tr_tok Tr_advance as t [_ Hv]. tr_last (LTr HC) as N HN; [exact (fun _ H => H)|].
  tr_look (Tr_coordA P _ N c fs co) as ec _; [rewrite HN; exact EX|exact (fun _ H => H)|].
  apply Tr_ret. unfold mkN. cbn [strip map]. rewrite Hv, HN. reflexivity.
Qed.

Lemma un_cast : forall o kvs X, unop_ok o = true -> (exists c fs co, X = VNode c fs co) -> CastS kvs X ->
  CastS ((opk o, o) :: kvs) (VNode C_UnaryOp [VStr o; X] None).
Proof.
  intros o kvs X Ho EX HC. destruct (unop_kind_facts _ (ok_opk _ o Ho)) as (HnoLP & Hpp & Hin & _).
  apply unary_to_cast; [exact HnoLP|]. apply Tr_LevelS. eapply Tr_S; [apply (unary_eq P)|].
  tr_look (Tr_peek_kind P _ (fun k => k = opk o)) as r [k [-> ->]]; [reflexivity|]. rewrite Hpp, Hin. exact (prefix_tr _ o kvs X EX HC).
Qed.

Lemma pre_cast : forall o kvs X, incdec_ok o = true -> (exists c fs co, X = VNode c fs co) -> UnaryS kvs X ->
  CastS ((opk o, o) :: kvs) (VNode C_UnaryOp [VStr o; X] None).
Proof.
  intros o kvs X Ho EX HC. destruct (incdec_kind_facts _ (ok_opk _ o Ho)) as (HnoLP & Hpp & _).
  apply unary_to_cast; [exact HnoLP|]. apply Tr_LevelS. eapply Tr_S; [apply (unary_eq P)|].
  tr_look (Tr_peek_kind P _ (fun k => k = opk o)) as r [k [-> ->]]; [reflexivity|]. rewrite Hpp. exact (prefix_tr _ o kvs X EX HC).
Qed.

Lemma cond_ternary : forall kc kt kf Xc Xt Xf, (exists c fs co, Xc = VNode c fs co) ->
  CastS (parkv kc) Xc -> ExprS (parkv kt) Xt -> CondS (parkv kf) Xf ->
  CondS (parkv kc ++ (K_CONDOP, s2l "?") :: parkv kt ++ (K_COLON, s2l ":") :: parkv kf) (VNode C_TernaryOp [Xc; Xt; Xf] None).
Proof.
  intros kc kt kf Xc Xt Xf [c [fs [co EX]]] HCc HEt HCf. apply Tr_LevelS. eapply Tr_S; [apply (cond_eq P)|].
  tr_run (LTr HCc) as Nc HNc; [reflexivity|].
  eapply Tr_first; [apply climb_stop|reflexivity|intros e ->; cbv beta].
  tr_tok Tr_accept_hit as q [x [-> _]]. tr_run (LTr HEt) as Nt HNt; [reflexivity|]. tr_tok Tr_expect as ? _.
  tr_last (LTr HCf) as Nf HNf; [exact (fun _ H => H)|].
  tr_look (Tr_coordA P _ Nc c fs co) as ec _; [rewrite HNc; exact EX|exact (fun _ H => H)|].
  apply Tr_ret. unfold mkN. cbn [strip map]. rewrite HNc, HNt, HNf. reflexivity.
Qed.

Lemma asg_assign : forall kl kr o Xl Xr, (exists c fs co, Xl = VNode c fs co) -> asgop_ok o = true -> first_ok kl ->
  CondS kl Xl -> AsgS kr Xr -> AsgS (kl ++ (opk o, o) :: kr) (VNode C_Assignment [VStr o; Xl; Xr] None).
Proof.
  intros kl kr o Xl Xr [c [fs [co EX]]] Ho Hfo HCl HAr. pose proof (ok_opk _ o Ho) as Hk. apply Tr_LevelS.
  apply asg_enter; [apply first_ok_app; exact Hfo|]. unfold asg_body.
  tr_run (LTr HCl) as Nl HNl; [exact (asg_kind_facts _ Hk)|].
  tr_look (Tr_peek P _ (fun k => k = opk o)) as r [x [-> Hx]]; [reflexivity|]. rewrite Hx, Hk.
  tr_tok Tr_advance as op [_ Hov].
  tr_last (LTr HAr) as Nr HNr; [exact (fun _ H => H)|].
  tr_look (Tr_coordA P _ Nl c fs co) as ec _; [rewrite HNl; exact EX|exact (fun _ H => H)|].
  apply Tr_ret. unfold mkN. cbn [strip map]. rewrite Hov, HNl, HNr. reflexivity.
Qed.

Definition ctoks (kl: list (list (kind * str) * value unit)) : list (kind * str) :=
  concat (map (fun kx => (K_COMMA, s2l ",") :: fst kx) kl).

Lemma commas_cons : forall (x: list (kind * str)) r, commas (x :: r) = x ++ concat (map (fun y => (K_COMMA, s2l ",") :: y) r).
Proof.
  intros x r. revert x. induction r as [|y r IH]; intros x; [cbn; rewrite app_nil_r; reflexivity|].
  change (commas (x :: y :: r)) with (x ++ (K_COMMA, s2l ",") :: commas (y :: r)). rewrite IH. cbn [map concat app]. reflexivity.
Qed.
Lemma commas_ctoks : forall x kl, commas (x :: map fst kl) = x ++ ctoks kl.
Proof. intros x kl. rewrite commas_cons. unfold ctoks. rewrite map_map. reflexivity. Qed.

Lemma ctoks_next : forall kl, nexts (ctoks kl) (fun k => estop k = true) (fun k => astop k = true).
Proof. intros [|[k X] kl]; [exact estop_astop|reflexivity]. Qed.

Lemma comma_run_tr : forall kl, Forall (fun kx => AsgS (fst kx) (snd kx)) kl ->
  Tr (p_comma_exprs P) (ctoks kl) (fun k => estop k = true) (fun Ns => map strip Ns = map snd kl).
Proof.
  induction kl as [|[k1 X1] kl IH]; intros HF; (eapply Tr_S; [apply (comma_eq P)|]).
  - tr_look Tr_accept_miss as c ->; [intros k Hk; exact (proj2 (proj2 (proj2 (estop_facts _ Hk))))|]. apply Tr_ret. reflexivity.
  - inversion HF as [|x y HA HF']; subst x y. change (ctoks ((k1, X1) :: kl)) with ((K_COMMA, s2l ",") :: k1 ++ ctoks kl).
    tr_tok Tr_accept_hit as c [x [-> _]]. tr_run (LTr HA) as N1 HN1; [apply ctoks_next|].
    tr_last (IH HF') as Ns HNs; [exact (fun _ H => H)|]. apply Tr_ret. cbn [map snd]. rewrite HN1, HNs. reflexivity.
Qed.

Lemma comma_run : forall kl, Forall (fun kx => AsgS (fst kx) (snd kx)) kl ->
  forall (s: pstate) le (stop: tok) l0, Spell le (ctoks kl) -> Up s (le ++ stop :: l0) -> estop (tk stop) = true ->
  exists f0 Ns s', (forall f, f0 <= f -> p_comma_exprs P f s = Ok (Ns, s')) /\ Up s' (stop :: l0) /\ map strip Ns = map snd kl /\ Ran P s s' (length le).
Proof. intros kl HF s le stop l0 HS HU Hst. exact (comma_run_tr kl HF s le stop l0 HS HU Hst I). Qed.

Lemma expr_comma : forall k1 X1 k2 X2 kl, (exists c fs co, X1 = VNode c fs co) -> AsgS k1 X1 -> AsgS k2 X2 ->
  Forall (fun kx => AsgS (fst kx) (snd kx)) kl ->
  ExprS (commas (k1 :: k2 :: map fst kl)) (VNode C_ExprList [VList (X1 :: X2 :: map snd kl)] None).
Proof.
  intros k1 X1 k2 X2 kl [c [fs [co EX]]] HA1 HA2 HF. apply Tr_LevelS. eapply Tr_S; [apply (expr_eq P)|].
  change (k2 :: map fst kl) with (map fst ((k2, X2) :: kl)). rewrite commas_ctoks.
  change (ctoks ((k2, X2) :: kl)) with ((K_COMMA, s2l ",") :: k2 ++ ctoks kl).
  tr_run (LTr HA1) as N1 HN1; [reflexivity|]. tr_tok Tr_accept_hit as cm [x [-> _]]. tr_run (LTr HA2) as N2 HN2; [apply ctoks_next|].
  tr_last (comma_run_tr kl HF) as Ns HNs; [exact (fun _ H => H)|].
  tr_look (Tr_coordA P _ N1 c fs co) as ec _; [rewrite HN1; exact EX|exact (fun _ H => H)|].
  apply Tr_ret. unfold mkN. cbn [strip map]. rewrite HN1, HN2, HNs. reflexivity.
Qed.

Lemma args_run : forall k1 X1 kl, (exists c fs co, X1 = VNode c fs co) -> AsgS k1 X1 -> Forall (fun kx => AsgS (fst kx) (snd kx)) kl ->
  Tr (p_argument_expression_list P) (k1 ++ ctoks kl) (fun k => estop k = true) (fun N => strip N = VNode C_ExprList [VList (X1 :: map snd kl)] None).
Proof.
  intros k1 X1 kl [c [fs [co EX]]] HA1 HF. eapply Tr_S; [apply (args_eq P)|]. tr_run (LTr HA1) as N1 HN1; [apply ctoks_next|].
  tr_last (comma_run_tr kl HF) as Ns HNs; [exact (fun _ H => H)|].
  tr_look (Tr_coordA P _ N1 c fs co) as ec _; [rewrite HN1; exact EX|exact (fun _ H => H)|].
  apply Tr_ret. unfold mkN. cbn [strip map]. rewrite HN1, HNs. reflexivity.
Qed.

(* [Loops run s X U]: for every large enough fuel, [run] started in s goes on, a bounded part of the fuel used up, as the suffix
   loop around a node of X, from a state satisfying U.  [R kvs X] says so of the primary-expression and the loop it enters, over
   tokens spelled kvs, whatever follows them *)
Definition Loops (run: nat -> M P (ParserBase.node P)) (s: pstate) (X: value unit) (U: pstate -> Prop) : Prop :=
  exists N s' d, strip N = X /\ U s' /\ forall f, d <= f -> exists f1, f <= f1 + d /\ run f s = p_postfix_suffixes P f1 N s'.

Definition R (kvs: list (kind * str)) (X: value unit) : Prop :=
  forall (s: pstate) le rest, Spell le kvs -> Up s (le ++ rest) ->
  exists d N s', Up s' rest /\ strip N = X /\ RanR P s s' (length le) /\
    forall f, d <= f -> exists f1, f <= f1 + d /\
      bind P (p_primary_expression P f) (fun e0 => p_postfix_suffixes P f e0) s = p_postfix_suffixes P f1 N s'.

Lemma Loops_S : forall (run body: nat -> M P (ParserBase.node P)) s X U, (forall f, run (S f) = body f) -> Loops body s X U -> Loops run s X U.
Proof.
  intros run body s X U E [N [s' [d [HN [HU H]]]]]. exists N, s', (S d). split; [exact HN|split; [exact HU|]]. intros [|f] Hf; [lia|].
  destruct (H f) as [f1 [Hf1 E1]]; [lia|]. exists f1. split; [lia|]. rewrite E. exact E1.
Qed.
Lemma Loops_bind : forall A (m: nat -> M P A) (g: nat -> A -> M P (ParserBase.node P)) s X U,
  Ev m s (fun a s1 => Loops (fun f => g f a) s1 X U) -> Loops (fun f => bind P (m f) (g f)) s X U.
Proof.
  intros A m g s X U [f0 [a [s1 [H1 [N [s' [d [HN [HU H2]]]]]]]]]. exists N, s', (Nat.max f0 d). split; [exact HN|split; [exact HU|]]. intros f Hf.
  destruct (H2 f) as [f1 [Hf1 E1]]; [lia|]. exists f1. split; [lia|]. unfold bind. rewrite (H1 f) by lia. exact E1.
Qed.
Lemma Loops_step : forall A (m: M P A) (g: nat -> A -> M P (ParserBase.node P)) s a s1 X U,
  m s = Ok (a, s1) -> Loops (fun f => g f a) s1 X U -> Loops (fun f => bind P m (g f)) s X U.
Proof. intros A m g s a s1 X U H H2. apply (Loops_bind A (fun _ => m) g). exists 0, a, s1. split; [intros; exact H|exact H2]. Qed.

(* the end of every suffix: the new node, at the coordinate of the chain so far, and on with the loop *)
Lemma Loops_mk : forall (Nb: ParserBase.node P) cl fs X (U: pstate -> Prop) s, (exists c fs0 co, strip Nb = VNode c fs0 co) ->
  VNode cl (map strip fs) None = X -> U s -> Loops (fun f => bind P (coordA P Nb) (fun ec => p_postfix_suffixes P f (mkN P cl fs ec))) s X U.
Proof.
  intros Nb cl fs X U s [c [fs0 [co EN]]] EX HU. destruct (coordA_node P Nb c fs0 co s EN) as [ec Hec]. eapply Loops_step; [exact Hec|].
  exists (mkN P cl fs ec), s, 0. split; [exact EX|split; [exact HU|]]. intros f _. exists f. split; [lia|reflexivity].
Qed.

Lemma R_base : forall kvs X, (forall (s: pstate) le rest, Spell le kvs -> Up s (le ++ rest) ->
    Ev (p_primary_expression P) s (fun N s' => Up s' rest /\ strip N = X /\ RanR P s s' (length le))) -> R kvs X.
Proof.
  intros kvs X H s le rest HS HU. destruct (H s le rest HS HU) as [f0 [N [s' [Hf [HU' [HN HR]]]]]].
  exists f0, N, s'. split; [exact HU'|split; [exact HN|split; [exact HR|]]]. intros f Hf0. exists f. split; [lia|]. unfold bind. rewrite (Hf f Hf0). reflexivity.
Qed.

Lemma R_step : forall kb ks Xb X, R kb Xb ->
  (forall Nb (s: pstate) le rest, strip Nb = Xb -> Spell le ks -> Up s (le ++ rest) ->
     Loops (fun f => p_postfix_suffixes P f Nb) s X (fun s' => Up s' rest /\ Ran P s s' (length le))) ->
  R (kb ++ ks) X.
Proof.
  intros kb ks Xb X HRb Hs s le rest HS HU. destruct (RoundTrip.Spell_app_inv P _ _ _ HS) as [lb [ls [-> [HSb HSs]]]]. rewrite <- app_assoc in HU.
  destruct (HRb s lb _ HSb HU) as [db [Nb [s1 [HU1 [HNb [HR1 Hred]]]]]].
  destruct (Hs Nb s1 ls rest HNb HSs HU1) as [N [s' [d [HN [[HU' HR'] Hf]]]]].
  exists (db + d), N, s'. split; [exact HU'|split; [exact HN|split; [cost_tac|]]].
  intros f Hf0. destruct (Hred f) as [f1 [Hf1 E1]]; [lia|]. destruct (Hf f1) as [f2 [Hf2 E2]]; [lia|]. exists f2. split; [lia|]. rewrite E1. exact E2.
Qed.

Lemma R_id : forall a, R [(K_ID, a)] (VNode C_ID [VStr a] None).
Proof.
  intros a. apply R_base. intros s le rest HS HU. destruct (Spell_one P _ _ _ HS) as [t [-> [Hk <-]]]. exact (id_primary P s t rest HU Hk).
Qed.

Lemma p_constant_ok : forall (s s2: pstate) t ty, advance P s = Ok (t, s2) -> const_ok (tk t) (tv t) ty = true ->
  p_constant P s = Ok (mkConstant P ty (tv t) (Some (mkCoord P (curfile P s2) (tp t))), s2).
Proof.
  intros s s2 t ty H Hc. unfold p_constant. unfold bind at 1. rewrite H. unfold bind at 1. rewrite (tok_coord_eq P).
  unfold const_ok in Hc. destruct (kind_in (tk t) tbl_INT_CONST).
  - destruct (int_const_type _ (tv t)) as [t0|]; [|discriminate Hc]. apply str_eqb_iff in Hc. subst t0. reflexivity.
  - destruct (kind_in (tk t) tbl_FLOAT_CONST).
    + destruct (float_const_type (tv t)) as [t0|]; [|discriminate Hc]. apply str_eqb_iff in Hc. subst t0. reflexivity.
    + apply andb_true_iff in Hc. destruct Hc as [Hc1 Hc2]. rewrite Hc1. apply str_eqb_iff in Hc2. subst ty. reflexivity.
Qed.

Lemma R_const : forall k v ty, const_ok k v ty = true -> R [(k, v)] (VNode C_Constant [VStr ty; VStr v] None).
Proof.
  intros k v ty Hc. apply R_base. intros s le rest HS HU. destruct (Spell_one P _ _ _ HS) as [t [-> [Hk Hv]]]. subst k v.
  pose proof (const_ok_kind _ _ _ Hc) as Hkk. destruct (const_kind_facts _ Hkk) as (HnoID & _).
  eapply Ev_S; [apply (primary_eq P)|]. destruct (peek_kind_up P s t _ HU) as [s1 [H1 [HU1 HC1]]]. eapply Ev_step; [exact H1|].
  rewrite HnoID. cbn [okind_in]. rewrite Hkk.
  destruct (advance_up P s1 t _ HU1) as [s2 [H2 [HU2 HC2]]]. apply (Ev_const P _ _ _ _ _ _ (fun _ => p_constant_ok _ _ _ _ H2 Hc)).
  split; [exact HU2|split; [reflexivity|cost_tac]].
Qed.

Lemma R_paren : forall kvs X, ExprS kvs X -> R (parkv kvs) X.
Proof. intros kvs X HE. apply R_base. exact (paren_primary P kvs X HE). Qed.

Lemma R_idx : forall kb ki Xb Xi, (exists c fs co, Xb = VNode c fs co) -> R kb Xb -> ExprS ki Xi ->
  R (kb ++ (K_LBRACKET, s2l "[") :: ki ++ [(K_RBRACKET, s2l "]")]) (VNode C_ArrayRef [Xb; Xi] None).
Proof.
  intros kb ki Xb Xi EX HRb HEi. apply (R_step _ _ _ _ HRb). intros Nb s le rest HNb HS HU.
  destruct (RoundTrip.Spell_cons_inv P _ _ _ _ HS) as [lbr [l3 [-> [Hlk [_ HS3]]]]].
  destruct (RoundTrip.Spell_app_inv P _ _ _ HS3) as [li [l4 [-> [HSi HS4]]]]. destruct (Spell_one P _ _ _ HS4) as [rbr [-> [Hrk _]]].
  cbn [app] in HU. rewrite <- app_assoc in HU. cbn [app] in HU. eapply Loops_S; [intros f; apply (UnaryShape.suffix_eq P)|].
  destruct (accept_hit P s lbr _ K_LBRACKET HU) as [s2 [H2 [HU2 HC2]]]; [rewrite Hlk; reflexivity|]. eapply Loops_step; [exact H2|]. cbv beta iota.
  apply Loops_bind. apply (Ev_mono _ _ _ _ _ _ (HEi s2 li rbr rest HSi HU2 ltac:(rewrite Hrk; reflexivity))). intros Ni s3 (HU3 & HNi & HR3).
  destruct (expect_up P s3 rbr _ K_RBRACKET HU3) as [s4 [H4 [HU4 HC4]]]; [rewrite Hrk; reflexivity|]. eapply Loops_step; [exact H4|].
  apply Loops_mk; [rewrite HNb; exact EX|cbn [map]; rewrite HNb, HNi; reflexivity|split; [exact HU4|cost_tac]].
Qed.

Lemma R_mem : forall kb ty fld Xb, (exists c fs co, Xb = VNode c fs co) -> memop_ok ty = true -> R kb Xb ->
  R (kb ++ [(opk ty, ty); (K_ID, fld)]) (VNode C_StructRef [Xb; VStr ty; VNode C_ID [VStr fld] None] None).
Proof.
  intros kb ty fld Xb EX Hm HRb. apply (R_step _ _ _ _ HRb). intros Nb s le rest HNb HS HU.
  destruct (RoundTrip.Spell_cons_inv P _ _ _ _ HS) as [opt [l3 [-> [Hok [Hov HS3]]]]]. destruct (Spell_one P _ _ _ HS3) as [nt [-> [Hnk Hnv]]].
  cbn [app] in HU. pose proof (ok_opk _ ty Hm) as Hm'. cbv beta in Hm'. rewrite <- Hok in Hm'. destruct (mem_kind_facts _ Hm') as [HnoLB [HnoLP Hpa]].
  eapply Loops_S; [intros f; apply (UnaryShape.suffix_eq P)|].
  destruct (accept_miss P s opt _ K_LBRACKET HU HnoLB) as [s2 [H2 [HU2 HC2]]]. eapply Loops_step; [exact H2|]. cbv beta iota.
  destruct (accept_miss P s2 opt _ K_LPAREN HU2 HnoLP) as [s3 [H3 [HU3 HC3]]]. eapply Loops_step; [exact H3|]. cbv beta iota.
  destruct (peek_kind_up P s3 opt _ HU3) as [s4 [H4 [HU4 HC4]]]. eapply Loops_step; [exact H4|]. rewrite Hpa.
  destruct (advance_up P s4 opt _ HU4) as [s5 [H5 [HU5 HC5]]]. eapply Loops_step; [exact H5|].
  destruct (advance_up P s5 nt _ HU5) as [s6 [H6 [HU6 HC6]]]. eapply Loops_step; [exact H6|]. eapply Loops_step; [reflexivity|].
  rewrite Hnk. kred.
  apply Loops_mk; [rewrite HNb; exact EX|unfold mkN; cbn [strip map]; rewrite HNb, Hov, Hnv; reflexivity|split; [exact HU6|cost_tac]].
Qed.

Lemma R_post : forall kb o Xb, (exists c fs co, Xb = VNode c fs co) -> incdec_ok o = true -> R kb Xb ->
  R (kb ++ [(opk o, o)]) (VNode C_UnaryOp [VStr (112%N :: o); Xb] None).
Proof.
  intros kb o Xb EX Ho HRb. apply (R_step _ _ _ _ HRb). intros Nb s le rest HNb HS HU.
  destruct (Spell_one P _ _ _ HS) as [opt [-> [Hok Hov]]]. cbn [app] in HU.
  pose proof (ok_opk _ o Ho) as Ho'. cbv beta in Ho'. rewrite <- Hok in Ho'. destruct (incdec_kind_facts _ Ho') as (HnoLP & Hpp & HnoLB & Hnopa & _).
  eapply Loops_S; [intros f; apply (UnaryShape.suffix_eq P)|].
  destruct (accept_miss P s opt _ K_LBRACKET HU HnoLB) as [s2 [H2 [HU2 HC2]]]. eapply Loops_step; [exact H2|]. cbv beta iota.
  destruct (accept_miss P s2 opt _ K_LPAREN HU2 HnoLP) as [s3 [H3 [HU3 HC3]]]. eapply Loops_step; [exact H3|]. cbv beta iota.
  destruct (peek_kind_up P s3 opt _ HU3) as [s4 [H4 [HU4 HC4]]]. eapply Loops_step; [exact H4|]. rewrite Hnopa, Hpp.
  destruct (advance_up P s4 opt _ HU4) as [s5 [H5 [HU5 HC5]]]. eapply Loops_step; [exact H5|].
  apply Loops_mk; [rewrite HNb; exact EX|cbn [map strip]; rewrite HNb, Hov; reflexivity|split; [exact HU5|cost_tac]].
Qed.

Lemma R_call0 : forall kb Xb, (exists c fs co, Xb = VNode c fs co) -> R kb Xb ->
  R (kb ++ (K_LPAREN, s2l "(") :: [] ++ [(K_RPAREN, s2l ")")]) (VNode C_FuncCall [Xb; VNone] None).
Proof.
  intros kb Xb EX HRb. apply (R_step _ _ _ _ HRb). intros Nb s le rest HNb HS HU.
  destruct (RoundTrip.Spell_cons_inv P _ _ _ _ HS) as [lp [l3 [-> [Hlk [_ HS3]]]]]. destruct (Spell_one P _ _ _ HS3) as [rpt [-> [Hrk _]]]. cbn [app] in HU.
  eapply Loops_S; [intros f; apply (UnaryShape.suffix_eq P)|].
  destruct (accept_miss P s lp _ K_LBRACKET HU) as [s2 [H2 [HU2 HC2]]]; [rewrite Hlk; reflexivity|]. eapply Loops_step; [exact H2|]. cbv beta iota.
  destruct (accept_hit P s2 lp _ K_LPAREN HU2) as [s3 [H3 [HU3 HC3]]]; [rewrite Hlk; reflexivity|]. eapply Loops_step; [exact H3|]. cbv beta iota.
  destruct (peek_kind_up P s3 rpt _ HU3) as [s4 [H4 [HU4 HC4]]]. eapply Loops_step; [exact H4|]. rewrite Hrk. cbn [okind_is]. kred.
  destruct (advance_up P s4 rpt _ HU4) as [s5 [H5 [HU5 HC5]]]. apply Loops_bind. eapply Ev_step; [exact H5|]. apply Ev_ret.
  apply Loops_mk; [rewrite HNb; exact EX|cbn [map strip]; rewrite HNb; reflexivity|split; [exact HU5|cost_tac]].
Qed.

Lemma R_call : forall kb Xb k1 X1 kl, (exists c fs co, Xb = VNode c fs co) -> (exists c fs co, X1 = VNode c fs co) -> R kb Xb ->
  first_ok k1 -> AsgS k1 X1 -> Forall (fun kx => AsgS (fst kx) (snd kx)) kl ->
  R (kb ++ (K_LPAREN, s2l "(") :: commas (k1 :: map fst kl) ++ [(K_RPAREN, s2l ")")])
    (VNode C_FuncCall [Xb; VNode C_ExprList [VList (X1 :: map snd kl)] None] None).
Proof.
  intros kb Xb k1 X1 kl EX EX1 HRb Hfo HA1 HF. apply (R_step _ _ _ _ HRb). intros Nb s le rest HNb HS HU.
  destruct (RoundTrip.Spell_cons_inv P _ _ _ _ HS) as [lp [l3 [-> [Hlk [_ HS3]]]]]. rewrite commas_ctoks in HS3.
  destruct (RoundTrip.Spell_app_inv P _ _ _ HS3) as [la [l4 [-> [HSa HS4]]]]. destruct (Spell_one P _ _ _ HS4) as [rpt [-> [Hrk _]]].
  cbn [app] in HU. rewrite <- app_assoc in HU. cbn [app] in HU. eapply Loops_S; [intros f; apply (UnaryShape.suffix_eq P)|].
  destruct (accept_miss P s lp _ K_LBRACKET HU) as [s2 [H2 [HU2 HC2]]]; [rewrite Hlk; reflexivity|]. eapply Loops_step; [exact H2|]. cbv beta iota.
  destruct (accept_hit P s2 lp _ K_LPAREN HU2) as [s3 [H3 [HU3 HC3]]]; [rewrite Hlk; reflexivity|]. eapply Loops_step; [exact H3|]. cbv beta iota.
  (* first token of the first argument: not `)` *)
  destruct Hfo as [k [v [rest1 [Ek [Hsk _]]]]]. pose proof HSa as HSa'. rewrite Ek in HSa'.
  destruct (RoundTrip.Spell_cons_inv P _ _ _ _ HSa') as [x1 [tl1 [El1 [Hkx _]]]].
  destruct (peek_kind_up P s3 x1 (tl1 ++ rpt :: rest)) as [s4 [H4 [HU4 HC4]]]; [rewrite El1 in HU3; exact HU3|]. eapply Loops_step; [exact H4|]. rewrite Hkx.
  cbn [okind_is]. rewrite (proj2 (startk_facts _ Hsk)).
  assert (HU4': Up s4 (la ++ rpt :: rest)) by (rewrite El1; exact HU4).
  apply Loops_bind. apply Ev_bind.
  apply (Ev_mono _ _ _ _ _ _ (args_run k1 X1 kl EX1 HA1 HF s4 la rpt rest HSa HU4' ltac:(rewrite Hrk; reflexivity) I)). intros Na s5 (HU5 & HNa & HR5).
  destruct (expect_up P s5 rpt _ K_RPAREN HU5) as [s6 [H6 [HU6 HC6]]]; [rewrite Hrk; reflexivity|]. eapply Ev_step; [exact H6|]. apply Ev_ret.
  apply Loops_mk; [rewrite HNb; exact EX|cbn [map strip]; rewrite HNb, HNa; reflexivity|split; [exact HU6|cost_tac]].
Qed.

Lemma R_stop : forall kvs X (s0 s: pstate) la (n: tok) l, R kvs X -> Spell la kvs -> Up s (la ++ n :: l) -> quiet (tk n) = true ->
  idx P s = idx P s0 /\ N.to_nat (ticks P s) <= N.to_nat (ticks P s0) + 2 /\ SC P s0 s ->
  Ev (fun f => bind P (p_primary_expression P f) (p_postfix_suffixes P f)) s (fun N s' => Up s' (n :: l) /\ strip N = X /\ Ran P s0 s' (length la)).
Proof.
  intros kvs X s0 s la n l HR HS HU Hq HC. destruct (HR s la _ HS HU) as [d [N [s4 [HU4 [HN [HR4 Hred]]]]]].
  destruct (suffixes_stop_c P s4 n l HU4 Hq) as [s5 [H5 [HU5 HS5]]]. exists (S d), N, s5. split; [|split; [exact HU5|split; [exact HN|cost_tac]]].
  intros f Hf. destruct (Hred f) as [[|f1] [Hf1 E1]]; [lia|lia|]. exact (eq_trans E1 (H5 f1 N)).
Qed.

Lemma chain_unary : forall kvs X, head_idlp kvs -> R kvs X -> UnaryS kvs X.
Proof.
  intros kvs X Hh HR. apply Tr_LevelS. intros s la n l HS HU Hq _.
  destruct (unary_to_primary P s _ (head_idlp_toks _ _ _ Hh HS) HU) as [s3 [HU3 [HC3 K]]]. apply K.
  refine (R_stop kvs X s s3 la n l HR HS HU3 Hq _). cost_tac.
Qed.

Lemma chain_to_cast : forall kvs X, head_idlp kvs -> R kvs X -> CastS kvs X.
Proof.
  intros kvs X Hh HR. apply Tr_LevelS. intros s la n l HS HU Hq _.
  destruct (cast_to_primary P s _ (head_idlp_toks _ _ _ Hh HS) HU) as [s3 [HU3 [HC3 K]]]. apply K.
  exact (R_stop kvs X s s3 la n l HR HS HU3 Hq HC3).
Qed.

(* [chain_to_cast] under a premise it does not need *)
Lemma chain_cast : forall kvs X, first_ok kvs -> head_idlp kvs -> R kvs X -> CastS kvs X.
Proof. intros kvs X _. apply chain_to_cast. Qed.

Lemma sizeof_cast : forall kx X, first_ok kx -> ExprS kx X ->
  CastS ((K_SIZEOF, s2l "sizeof") :: parkv kx) (VNode C_UnaryOp [VStr (s2l "sizeof"); X] None).
Proof.
  intros kx X Hfo HE. apply unary_to_cast; [reflexivity|]. apply Tr_LevelS. intros s la n l HS HU Hq _.
  destruct (RoundTrip.Spell_cons_inv P _ _ _ _ HS) as [t [la' [-> [Hk [Hv HS']]]]]. cbn [app] in HU.
  eapply Ev_S; [apply (unary_eq P)|]. destruct (peek_kind_up P s t _ HU) as [s2 [H2 [HU2 HC2]]]. eapply Ev_step; [exact H2|]. rewrite Hk.
  cbn [okind_is okind_in kind_in]. kred. cbn [orb].
  destruct (advance_up P s2 t _ HU2) as [s3 [H3 [HU3 HC3]]]. eapply Ev_step; [exact H3|].
  (* ( x ... : not a type name *)
  pose proof (head_idlp_parkv kx Hfo) as Hh. destruct (tptn_gives_up P s3 _ (head_idlp_toks _ _ _ Hh HS') HU3) as [s4 [H4 [HU4 HC4]]].
  apply Ev_bind. apply (Ev_const P _ _ _ _ _ _ H4). cbv beta iota. apply Ev_bind.
  apply (Ev_mono _ _ _ _ _ _ (chain_unary (parkv kx) X Hh (R_paren kx X HE) s4 la' n l HS' HU4 Hq)). intros N s5 (HU5 & HN & HR5).
  eapply Ev_step; [reflexivity|]. apply Ev_ret. split; [exact HU5|split; [unfold mkN; cbn [strip map]; rewrite Hv, HN; reflexivity|cost_tac]].
Qed.
End PX.

Section MainX.
Variable P : Type.
Variable rp : bool.
Notation CastS := (CastS P).
Notation CondS := (CondS P).
Notation AsgS := (AsgS P).
Notation ExprS := (ExprS P).
Notation xt := (xt rp).
Notation opnd := (opnd rp).
Notation argt := (argt rp).

(* what the induction over expressions carries: the first tokens; of a postfix chain (an operand printed without parentheses) that
   the primary and its suffix loop parse it; the expression as an operand and at every level of the ladder its shape admits *)
Definition T (e: ex) : Prop :=
  first_ok (xt e) /\ (simple e = true -> head_idlp (xt e) /\ R P (xt e) (embx e)) /\
  CastS (opnd e) (embx e) /\ (isasg e = false -> iscomma e = false -> CondS (xt e) (embx e)) /\
  (iscomma e = false -> AsgS (xt e) (embx e)) /\ ExprS (xt e) (embx e).

Lemma T_expr : forall e, T e -> ExprS (xt e) (embx e).
Proof. intros e (_ & _ & _ & _ & _ & HE). exact HE. Qed.
Lemma T_cast : forall e, T e -> CastS (opnd e) (embx e).
Proof. intros e (_ & _ & HC & _). exact HC. Qed.
Lemma T_first_argt : forall e, T e -> first_ok (argt e).
Proof. intros e (Hf & _). unfold RoundTripX.argt, vx. destruct (iscomma e); [apply first_ok_parkv; exact Hf|exact Hf]. Qed.
Lemma T_paren : forall e, T e -> CastS (parkv (xt e)) (embx e).
Proof. intros e HT. apply paren_to_cast; [exact (proj1 HT)|apply T_expr; exact HT]. Qed.
Lemma T_asg_argt : forall e, T e -> AsgS (argt e) (embx e).
Proof.
  intros e HT. unfold RoundTripX.argt, vx. destruct (iscomma e) eqn:E.
  - apply cond_to_asg; [apply first_ok_parkv; exact (proj1 HT)|apply cast_to_cond; apply T_paren; exact HT].
  - destruct HT as (_ & _ & _ & _ & HA & _). exact (HA E).
Qed.
Lemma T_expr_argt : forall e, T e -> ExprS (argt e) (embx e).
Proof. intros e HT. apply asg_to_expr. apply T_asg_argt. exact HT. Qed.
Lemma T_paren_argt : forall e, T e -> CastS (parkv (argt e)) (embx e).
Proof. intros e HT. apply paren_to_cast; [apply T_first_argt; exact HT|apply T_expr_argt; exact HT]. Qed.
Lemma T_first_opnd : forall e, T e -> first_ok (opnd e).
Proof.
  intros e HT. unfold RoundTripX.opnd, wrap. destruct (simple e); [exact (proj1 HT)|apply first_ok_parkv; exact (T_first_argt e HT)].
Qed.
Lemma T_head_opnd : forall e, T e -> head_idlp (opnd e).
Proof. intros e HT. pose proof (T_first_argt e HT) as Hfa. destruct HT as (_ & Hs & _). unfold RoundTripX.opnd, wrap. destruct (simple e); [exact (proj1 (Hs eq_refl))|apply head_idlp_parkv; exact Hfa]. Qed.
Lemma T_R_opnd : forall e, T e -> R P (opnd e) (embx e).
Proof.
  intros e HT. pose proof (T_expr_argt e HT) as HE. destruct HT as (_ & Hs & _). unfold RoundTripX.opnd, wrap.
  destruct (simple e); [exact (proj2 (Hs eq_refl))|apply R_paren; exact HE].
Qed.

(* an expression that is no postfix chain, from what is known of it at the levels of the ladder: as an operand it is parenthesised *)
Lemma T_of_levels : forall e, simple e = false -> first_ok (xt e) -> (isasg e = false -> iscomma e = false -> CondS (xt e) (embx e)) ->
  (iscomma e = false -> AsgS (xt e) (embx e)) -> ExprS (xt e) (embx e) -> T e.
Proof.
  intros e Hs Hf HC HA HE. split; [exact Hf|]. split; [intros E; congruence|]. split; [|split; [exact HC|split; [exact HA|exact HE]]].
  pose proof (paren_to_cast P _ _ Hf HE) as HP. unfold RoundTripX.opnd, wrap, vx. rewrite Hs. destruct (iscomma e); [|exact HP].
  apply paren_to_cast; [apply first_ok_parkv; exact Hf|]. apply cond_to_expr; [apply first_ok_parkv; exact Hf|apply cast_to_cond; exact HP].
Qed.
Lemma T_of_cond : forall e, simple e = false -> first_ok (xt e) -> CondS (xt e) (embx e) -> T e.
Proof.
  intros e Hs Hf HC. pose proof (cond_to_asg P _ _ Hf HC) as HA.
  exact (T_of_levels e Hs Hf (fun _ _ => HC) (fun _ => HA) (asg_to_expr P _ _ HA)).
Qed.
Lemma T_of_cast : forall e, simple e = false -> first_ok (xt e) -> CastS (xt e) (embx e) -> T e.
Proof. intros e Hs Hf HC. apply T_of_cond; [exact Hs|exact Hf|apply cast_to_cond; exact HC]. Qed.

Lemma T_of_chain : forall e, simple e = true -> first_ok (xt e) -> head_idlp (xt e) -> R P (xt e) (embx e) -> T e.
Proof.
  intros e Hs Hf Hh HR. assert (HCa: CastS (xt e) (embx e)) by (apply chain_to_cast; assumption).
  assert (HC: CondS (xt e) (embx e)) by (apply cast_to_cond; exact HCa).
  assert (HA: AsgS (xt e) (embx e)) by (apply cond_to_asg; assumption).
  split; [exact Hf|]. split; [intros _; split; assumption|]. split; [|split; [intros _ _; exact HC|split; [intros _; exact HA|apply asg_to_expr; exact HA]]].
  unfold RoundTripX.opnd, wrap. rewrite Hs. exact HCa.
Qed.
(* a chain with one more suffix begins as the chain does *)
Lemma T_of_suffix : forall e b ks, simple e = true -> xt e = opnd b ++ ks -> T b -> R P (opnd b ++ ks) (embx e) -> T e.
Proof.
  intros e b ks Hs E HTb HR. apply T_of_chain; [exact Hs| | |]; rewrite E;
    [apply first_ok_app; exact (T_first_opnd b HTb)|apply head_idlp_app; exact (T_head_opnd b HTb)|exact HR].
Qed.

Lemma ops_to_gt : forall e, wf e -> opsg ex (to_gt e).
Proof. induction e; intros H; try exact I. cbn [wf] in H. destruct H as (Ho & Hl & Hr). cbn [to_gt opsg]. auto. Qed.

Lemma leaves_to_gt : forall (Q: ex -> Prop) e, wf e -> (forall b, size b <= size e -> wf b -> Q b) -> leavesg ex Q (to_gt e).
Proof.
  intros Q. induction e; intros Hw HQ; try (cbn [to_gt leavesg]; apply HQ; [lia|exact Hw]).
  cbn [wf] in Hw. destruct Hw as (Ho & Hl & Hr). cbn [to_gt leavesg]. split.
  - apply IHe1; [exact Hl|]. intros b Hb Hwb. apply HQ; [cbn [size]; lia|exact Hwb].
  - apply IHe2; [exact Hr|]. intros b Hb Hwb. apply HQ; [cbn [size]; lia|exact Hwb].
Qed.

Lemma in_list_sum : forall A (m: A -> nat) l a, In a l -> m a <= list_sum (map m l).
Proof.
  induction l as [|x r IH]; intros a H; [destruct H|]. change (list_sum (map m (x :: r))) with (m x + list_sum (map m r)).
  destruct H as [->|H]; [lia|]. specialize (IH a H). lia.
Qed.

Lemma list_asg : forall l, Forall T l -> Forall (fun kx => AsgS (fst kx) (snd kx)) (map (fun a => (argt a, embx a)) l).
Proof. intros l H. apply Forall_map. exact (Forall_impl _ T_asg_argt H). Qed.

Lemma tyok_TyOK : forall ty, tyok ty -> TyOK P ty.
Proof. intros ty [[Hne HF]|[v ->]]; [apply simple_tyok; assumption|apply typeid_tyok]. Qed.
Theorem T_all : forall n e, size e <= n -> wf e -> T e.
Proof.
  induction n as [|n IH]; intros e Hn Hw; [destruct e; cbn in Hn; lia|].
  assert (IHl: forall l, wfl l -> list_sum (map size l) <= n -> Forall T l).
  { intros l Hwl Hs. apply Forall_forall. intros a Ha. apply IH; [pose proof (in_list_sum _ size l a Ha); lia|].
    exact (all_in _ wf l a Hwl Ha). }
  destruct e as [a|k v ty|o l r|o x|o x|o x|x|b i|b ty fld|b args|c t f|o l r|es|ty x|ty]; cbn [size] in Hn; cbn [wf] in Hw.
  - (* identifier *)
    apply T_of_chain; [reflexivity|apply first_ok_tok; reflexivity|apply head_idlp_tok; reflexivity|apply R_id].
  - (* constant *)
    destruct (const_kind_facts _ (const_ok_kind _ _ _ Hw)) as (_ & Hsk & Hlb & Hlp & Hup).
    apply T_of_chain; [reflexivity|exact (first_ok_tok _ _ _ Hsk Hlb Hlp)|exact (head_idlp_tok _ _ _ Hup Hlp)|apply R_const; exact Hw].
  - (* binary operator: the maximal operator tree, its leaves are smaller expressions *)
    assert (Hlv: forall x, wf x -> size x <= n -> leavesg ex (LeafOK P ex opnd embx) (to_gt x)).
    { intros x Hx Hsx. apply leaves_to_gt; [exact Hx|]. intros b Hb Hwb. assert (HT: T b) by (apply IH; [lia|exact Hwb]).
      split; [apply T_first_opnd; exact HT|apply T_cast; exact HT]. }
    set (e := XBin o l r) in *. assert (Hleaves: leavesg ex (LeafOK P ex opnd embx) (to_gt e)) by (split; apply Hlv; try apply Hw; lia).
    pose proof (binop_cond P rp ex opnd embx embx_node (hg ex (to_gt e)) (to_gt e) (le_n _) (ops_to_gt e Hw) Hleaves
                  ltac:(eexists; eexists; eexists; reflexivity)) as HC.
    pose proof (first_ok_kvg P rp ex opnd embx _ Hleaves) as Hf.
    assert (Ext: xt e = kvg rp ex opnd (to_gt e)) by exact (xt_bin rp e). rewrite <- embx_gt in HC. rewrite <- Ext in HC, Hf.
    apply T_of_cond; [reflexivity|exact Hf|exact HC].
  - (* prefix operator *)
    destruct Hw as (Ho & Hx). assert (HT: T x) by (apply IH; [lia|exact Hx]).
    destruct (unop_kind_facts _ (ok_opk _ o Ho)) as (HnoLP & _ & _ & Hsk & Hlb).
    apply T_of_cast; [reflexivity|exact (first_ok_tok _ _ _ Hsk Hlb HnoLP)|exact (un_cast P o _ _ Ho (embx_node x) (T_cast x HT))].
  - (* prefix ++ / -- *)
    destruct Hw as (Ho & Hx). assert (HT: T x) by (apply IH; [lia|exact Hx]).
    destruct (incdec_kind_facts _ (ok_opk _ o Ho)) as (HnoLP & _ & _ & _ & Hsk & Hlb).
    apply T_of_cast; [reflexivity|exact (first_ok_tok _ _ _ Hsk Hlb HnoLP)|].
    exact (pre_cast P o _ _ Ho (embx_node x) (chain_unary P _ _ (T_head_opnd x HT) (T_R_opnd x HT))).
  - (* postfix ++ / -- *)
    destruct Hw as (Ho & Hx). assert (HT: T x) by (apply IH; [lia|exact Hx]).
    assert (Hf: first_ok (xt (XPost o x))) by (apply first_ok_app; apply T_first_opnd; exact HT).
    apply T_of_cast; [reflexivity|exact Hf|].
    apply chain_to_cast; [apply head_idlp_app; apply T_head_opnd; exact HT|exact (R_post P _ o _ (embx_node x) Ho (T_R_opnd x HT))].
  - (* sizeof expression *)
    assert (HT: T x) by (apply IH; [lia|exact Hw]).
    apply T_of_cast; [reflexivity|apply first_ok_tok; reflexivity|exact (sizeof_cast P _ _ (proj1 HT) (T_expr x HT))].
  - (* subscript *)
    destruct Hw as (Hb & Hi). assert (HTb: T b) by (apply IH; [lia|exact Hb]). assert (HTi: T i) by (apply IH; [lia|exact Hi]).
    exact (T_of_suffix (XIdx b i) b _ eq_refl eq_refl HTb (R_idx P _ _ _ _ (embx_node b) (T_R_opnd b HTb) (T_expr i HTi))).
  - (* member access *)
    destruct Hw as (Hm & Hb). assert (HTb: T b) by (apply IH; [lia|exact Hb]).
    exact (T_of_suffix (XMem b ty fld) b _ eq_refl eq_refl HTb (R_mem P _ ty fld _ (embx_node b) Hm (T_R_opnd b HTb))).
  - (* function call *)
    destruct Hw as (Hb & Hargs). assert (HTb: T b) by (apply IH; [lia|exact Hb]). assert (HTa: Forall T args) by (apply IHl; [exact Hargs|lia]).
    apply (T_of_suffix (XCall b args) b _ eq_refl eq_refl HTb).
    destruct args as [|a1 rest]; [exact (R_call0 P _ _ (embx_node b) (T_R_opnd b HTb))|].
    inversion HTa as [|x y HT1 HTr]; subst x y.
    pose proof (R_call P (opnd b) (embx b) (argt a1) (embx a1) (map (fun a => (argt a, embx a)) rest) (embx_node b) (embx_node a1)
                  (T_R_opnd b HTb) (T_first_argt a1 HT1) (T_asg_argt a1 HT1) (list_asg rest HTr)) as HR.
    rewrite !map_map in HR. exact HR.
  - (* conditional operator *)
    destruct Hw as (Hc & Ht & Hf). assert (HTc: T c) by (apply IH; [lia|exact Hc]).
    assert (HTt: T t) by (apply IH; [lia|exact Ht]). assert (HTf: T f) by (apply IH; [lia|exact Hf]).
    apply T_of_cond; [reflexivity|apply first_ok_app; apply first_ok_parkv; exact (T_first_argt c HTc)|].
    refine (cond_ternary P _ _ _ _ _ _ (embx_node c) (T_paren_argt c HTc) _ (cast_to_cond P _ _ (T_paren_argt f HTf))).
    apply cond_to_expr; [apply first_ok_parkv; exact (T_first_argt t HTt)|apply cast_to_cond; apply T_paren_argt; exact HTt].
  - (* assignment *)
    destruct Hw as (Ho & Hnl & Hncl & Hl & Hr). assert (HTl: T l) by (apply IH; [lia|exact Hl]). assert (HTr: T r) by (apply IH; [lia|exact Hr]).
    assert (HA: AsgS (xt (XAsg o l r)) (embx (XAsg o l r))).
    { refine (asg_assign P _ _ o _ _ (embx_node l) Ho (proj1 HTl) (proj1 (proj2 (proj2 (proj2 HTl))) Hnl Hncl) _).
      destruct (isasg r); [|exact (T_asg_argt r HTr)].
      apply cond_to_asg; [apply first_ok_parkv; exact (proj1 HTr)|apply cast_to_cond; apply T_paren; exact HTr]. }
    apply T_of_levels; [reflexivity|apply first_ok_app; exact (proj1 HTl)|discriminate|intros _; exact HA|exact (asg_to_expr P _ _ HA)].
  - (* comma expression *)
    destruct Hw as (Hlen & Hes). assert (HTe: Forall T es) by (apply IHl; [exact Hes|lia]).
    destruct es as [|e1 [|e2 rest]]; cbn [length] in Hlen; try lia.
    inversion HTe as [|x y HT1 HTe']; subst x y. inversion HTe' as [|x y HT2 HTr]; subst x y.
    pose proof (expr_comma P (argt e1) (embx e1) (argt e2) (embx e2) (map (fun a => (argt a, embx a)) rest) (embx_node e1)
                  (T_asg_argt e1 HT1) (T_asg_argt e2 HT2) (list_asg rest HTr)) as HE.
    rewrite !map_map in HE.
    apply T_of_levels; [reflexivity| |intros _ E; discriminate E|intros E; discriminate E|exact HE].
    cbn [RoundTripX.xt map]. rewrite commas_cons. apply first_ok_app. exact (T_first_argt e1 HT1).
  - (* cast *)
    destruct Hw as (Hty & Hx). assert (HT: T x) by (apply IH; [lia|exact Hx]). pose proof (tyok_TyOK ty Hty) as HTy.
    apply T_of_cast; [reflexivity| |exact (cast_type P ty (opnd x) (embx x) HTy (T_first_opnd x HT) (T_cast x HT))].
    destruct HTy as (_ & [k0 [v0 [ty' [-> Hk0]]]] & _). exact (first_ok_paren _ _ _ _ (proj1 (decl_start_facts k0 Hk0))).
  - (* sizeof(type-name) *)
    apply T_of_cast; [reflexivity|apply first_ok_tok; reflexivity|exact (sizeof_type P ty (tyok_TyOK ty Hw))].
Qed.

(* parse . generate = id, token level: every expression of the language - with the cost of the parse:
   exactly the generated tokens are consumed, and next() is called at most three times per token *)
Theorem parse_of_generated_expression_cost : forall e, wf e ->
  forall (s: ParserBase.pstate P) le stop l0, RoundTrip.Spell P le (xt e) -> StreamLib.Up P s (le ++ stop :: l0) -> estop (tk stop) = true ->
  exists f0 N s', (forall f, f0 <= f -> p_expression P f s = Ok (N, s')) /\ StreamLib.Up P s' (stop :: l0) /\ strip N = embx e /\
    StreamLib.Ran P s s' (length le).
Proof. intros e Hw. exact (T_expr e (T_all (size e) e (le_n _) Hw)). Qed.

Theorem parse_of_generated_expression : forall e, wf e ->
  forall (s: ParserBase.pstate P) le stop l0, RoundTrip.Spell P le (xt e) -> StreamLib.Up P s (le ++ stop :: l0) -> estop (tk stop) = true ->
  exists f0 N s', (forall f, f0 <= f -> p_expression P f s = Ok (N, s')) /\ StreamLib.Up P s' (stop :: l0) /\ strip N = embx e.
Proof.
  intros e Hw s le stop l0 HS HU Hst. destruct (parse_of_generated_expression_cost e Hw s le stop l0 HS HU Hst) as [f0 [N [s' [H [HU' [HN _]]]]]].
  exists f0, N, s'. split; [exact H|split; [exact HU'|exact HN]].
Qed.
End MainX.

(* the hypotheses are satisfiable: `( a + b ) * c ;` - 7 tokens consumed in 9 reads (the parenthesis is read three times) *)
Definition ex_cost_e : ex := XBin (s2l "*") (XBin (s2l "+") (XId (s2l "a")) (XId (s2l "b"))) (XId (s2l "c")).
Example cost_hypotheses_satisfiable :
  wf ex_cost_e /\ RoundTrip.Spell nat ex_toks (xt false ex_cost_e) /\
  StreamLib.Up nat ex_state (ex_toks ++ [mkTok nat K_SEMI (s2l ";") 8]) /\ estop K_SEMI = true /\
  match p_expression nat 60 ex_state with Ok (_, s') => (idx nat s', ticks nat s') = (7, 9%N) | _ => False end.
Proof.
  split; [cbn; repeat split; discriminate|]. split; [vm_compute; reflexivity|].
  split; [exact (proj1 (proj2 (proj2 roundtrip_hypotheses_satisfiable)))|]. split; vm_compute; reflexivity.
Qed.
