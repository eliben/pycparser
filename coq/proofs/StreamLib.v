(* Forward reasoning on the buffered token stream of the parser model (ParserBase: _TokenStream with
   lazy delivery, typedef-name classification at delivery time, mark / reset):
   [Up s l]: the tokens the parser will see next from state s are l (a prefix of what is to come),
   braces included (they open and close a scope at delivery; the stack is threaded through UpR).  peek / peek(2) / advance /
   accept / expect / reset (one token back) behave on such a state as on a plain list.  [UpEnd]: l is all that is to come.
   [Ev]: runs of fuelled productions, with the rules that compose them along bind.
   Also, for the files about successful runs, what any successful peek / advance did to the stream ([peek_spec], [peek_idem],
   [advance_after_peek]) and that delivery leaves the read counter alone ([deliver1_ticks], [fill_aux_ticks]). *)
From Coq Require Import List NArith Bool Arith Lia.
Import ListNotations.
From PV Require Import Regex Base LexTables ParserTables AstDefs AstSpec AstImpl PyRepr NodeModel ParserBase PostLib.
Open Scope nat_scope.

Section SL.
Variable P : Type.
Notation pstate := (pstate P).
Notation tok := (tok P).

(* deliver1 on a token item: the token it is delivered as under the scope stack sc, and the scope stack afterwards *)
Definition cl (sc: list (list (option str * bool))) (i: pitem P) : option (tok * list (list (option str * bool))) :=
  match i with
  | PTok _ k v p fa =>
    let t := mkTok P (if kind_eqb k K_ID then (if is_type_in (Some v) sc then K_TYPEID else K_ID) else k) v p in
    if kind_eqb k K_LBRACE then Some (t, [] :: sc)
    else if kind_eqb k K_RBRACE then match sc with _ :: (_ :: _) as sc' => Some (t, sc') | _ => None end
    else Some (t, sc)
  | _ => None
  end.

Inductive UpR : list (list (option str * bool)) -> list (pitem P) -> list tok -> Prop :=
| UpR_nil : forall sc r, UpR sc r []
| UpR_cons : forall sc i r t sc' l, cl sc i = Some (t, sc') -> UpR sc' r l -> UpR sc (i :: r) (t :: l).

Definition Up (s: pstate) (l: list tok) : Prop :=
  exists a l2, after P s = map Some a /\ l = a ++ l2 /\ UpR (scopes P s) (raw P s) l2.

Lemma UpR_inv : forall sc rw t l, UpR sc rw (t :: l) -> exists i r sc', rw = i :: r /\ cl sc i = Some (t, sc') /\ UpR sc' r l.
Proof. intros sc rw t l H. inversion H as [|sc0 i r t' sc' l' Hc HU' Hs Hr]. exists i, r, sc'. split; [reflexivity|split; assumption]. Qed.

(* a scope stack without typedef names; [SC s s']: the step from s to s' introduces none (every lemma of this library and
   every level statement built on it carries it, so that declarations - which add names to the innermost scope - can be
   followed through expressions and statements) *)
Definition NoTD (sc: list (list (option str * bool))) : Prop := sc <> [] /\ Forall (Forall (fun e => snd e = false)) sc.
(* ... and [tot]: tokens consumed + buffered + not yet delivered - constant as long as the end of the input is not reached, which
   is what lets a completeness theorem say "and then the input is exhausted" *)
Definition tot (s: pstate) : nat := idx P s + length (after P s) + length (raw P s).
Definition SC (s s': pstate) : Prop := (NoTD (scopes P s) -> NoTD (scopes P s')) /\ tot s' = tot s.
Lemma SC_refl : forall s, SC s s.
Proof. intros s. split; [exact (fun H => H)|reflexivity]. Qed.
Lemma SC_trans : forall a b c, SC a b -> SC b c -> SC a c.
Proof. intros a b c [K1 T1] [K2 T2]. split; [exact (fun H => K2 (K1 H))|congruence]. Qed.

Definition Same (s s1: pstate) : Prop := before P s1 = before P s /\ idx P s1 = idx P s /\ ticks P s1 = ticks P s /\ SC s s1.
Definition Adv (t: tok) (s s2: pstate) : Prop := before P s2 = Some t :: before P s /\ idx P s2 = S (idx P s) /\ ticks P s2 = (ticks P s + 1)%N /\ SC s s2.

(* [Ran s s' n]: from s to s' the parser consumed n tokens and called next() at most 3 n times (a token in front
   of which a parenthesised type name is tried is read once by each speculative attempt and once for good) *)
Definition Ran (s s': pstate) (n: nat) : Prop :=
  idx P s' = idx P s + n /\ N.to_nat (ticks P s') <= N.to_nat (ticks P s) + 3 * n /\ SC s s'.

(* the same for a postfix chain, which is entered after at most two speculative attempts: two reads to spare *)
Definition RanR (s s': pstate) (n: nat) : Prop :=
  idx P s' = idx P s + n /\ N.to_nat (ticks P s') + 2 <= N.to_nat (ticks P s) + 3 * n /\ SC s s'.

Lemma Same_refl : forall s, Same s s.
Proof. intros s. split; [reflexivity|split; [reflexivity|split; [reflexivity|apply SC_refl]]]. Qed.
Lemma Same_trans : forall a b c, Same a b -> Same b c -> Same a c.
Proof. intros a b c [H1 [H2 [H2' K1]]] [H3 [H4 [H4' K2]]]. split; [congruence|split; [congruence|split; [congruence|exact (SC_trans _ _ _ K1 K2)]]]. Qed.
Lemma Adv_Same : forall t a b c, Adv t a b -> Same b c -> Adv t a c.
Proof. intros t a b c [H1 [H2 [H2' K1]]] [H3 [H4 [H4' K2]]]. split; [congruence|split; [congruence|split; [congruence|exact (SC_trans _ _ _ K1 K2)]]]. Qed.
Lemma Same_Adv : forall t a b c, Same a b -> Adv t b c -> Adv t a c.
Proof. intros t a b c [H1 [H2 [H2' K1]]] [H3 [H4 [H4' K2]]]. split; [congruence|split; [congruence|split; [congruence|exact (SC_trans _ _ _ K1 K2)]]]. Qed.

Lemma cl_notd : forall sc i t sc', cl sc i = Some (t, sc') -> NoTD sc -> NoTD sc'.
Proof.
  intros sc i t sc' Hc HN. destruct i as [k v p fa|msg p f|]; cbn [cl] in Hc; try discriminate.
  destruct HN as [HN0 HN]. destruct (kind_eqb k K_LBRACE).
  - injection Hc as _ <-. split; [discriminate|]. constructor; [constructor|exact HN].
  - destruct (kind_eqb k K_RBRACE).
    + destruct sc as [|s0 [|s1 sr]]; try discriminate Hc. injection Hc as _ <-. split; [discriminate|]. inversion HN; assumption.
    + injection Hc as _ <-. split; assumption.
Qed.

Lemma deliver1_plain : forall (s: pstate) i r t sc', raw P s = i :: r -> cl (scopes P s) i = Some (t, sc') ->
  exists fa, deliver1 P s = Ok (tt, mkPS P r (eof_file P s) (before P s) (after P s ++ [Some t]) (idx P s) sc' fa (ticks P s)).
Proof.
  intros s i r t sc' Hr Hc. unfold deliver1. rewrite Hr. destruct i as [k v p fa|msg p f|]; cbn [cl] in Hc; try discriminate.
  destruct (kind_eqb k K_LBRACE) eqn:E1.
  - injection Hc as <- <-. exists fa. reflexivity.
  - destruct (kind_eqb k K_RBRACE) eqn:E2.
    + destruct (scopes P s) as [|s0 [|s1 sr]]; try discriminate Hc. injection Hc as <- <-. exists fa. reflexivity.
    + injection Hc as <- <-. exists fa. reflexivity.
Qed.

Lemma last_is_none_snoc : forall (l: list (option tok)) t, last_is_none P (l ++ [Some t]) = false.
Proof.
  intros l t. unfold last_is_none. assert (H: last_opt (l ++ [Some t]) = Some (Some t)).
  { induction l as [|x l IH]; [reflexivity|]. cbn [app]. destruct (l ++ [Some t]) eqn:E; [destruct l; discriminate|].
    cbn [last_opt] in *. exact IH. }
  rewrite H. reflexivity.
Qed.

Lemma deliver_up : forall (s: pstate) a t l2, after P s = map Some a -> UpR (scopes P s) (raw P s) (t :: l2) ->
  exists s1, deliver1 P s = Ok (tt, s1) /\ after P s1 = map Some (a ++ [t]) /\ UpR (scopes P s1) (raw P s1) l2 /\ Same s s1.
Proof.
  intros s a t l2 Ha HU. destruct (UpR_inv _ _ _ _ HU) as [i [r [sc' [Hr [Hc HU']]]]].
  destruct (deliver1_plain s i r t sc' Hr Hc) as [fa Hd]. eexists. split; [exact Hd|]. cbn [after scopes raw].
  split; [rewrite Ha, map_app; reflexivity|split; [exact HU'|]].
  split; [reflexivity|split; [reflexivity|split; [reflexivity|split; [intros HN; exact (cl_notd _ _ _ _ Hc HN)|]]]].
  unfold tot. cbn [idx after raw]. rewrite Hr, app_length. cbn [length]. lia.
Qed.

Lemma fill_up : forall fuel n (s: pstate) l, Up s l -> n <= length l -> n <= length (after P s) + fuel ->
  exists s1 a l2, fill_aux P fuel n s = Ok (tt, s1) /\ after P s1 = map Some a /\ l = a ++ l2 /\ n <= length a /\
                  UpR (scopes P s1) (raw P s1) l2 /\ Same s s1.
Proof.
  induction fuel as [|fu IH]; intros n s l [a [l2 [Ha [Hl HU]]]] Hn Hf; cbn [fill_aux].
  - exists s, a, l2. rewrite Ha, map_length in Hf. split; [reflexivity|split; [exact Ha|split; [exact Hl|split; [lia|split; [exact HU|apply Same_refl]]]]].
  - unfold bind at 1. unfold get at 1. destruct (Nat.ltb (length (after P s)) n) eqn:E.
    + apply Nat.ltb_lt in E. rewrite Ha, map_length in E. destruct l2 as [|t l2']; [subst l; rewrite app_nil_r in Hn; lia|].
      destruct (deliver_up s a t l2' Ha HU) as [s1 [Hd [Ha1 [HU1 HS1]]]].
      unfold bind at 1. rewrite Hd. unfold bind at 1. unfold get at 1. rewrite Ha1, map_app. cbn [map]. rewrite last_is_none_snoc.
      destruct (IH n s1 l) as [s2 [a2 [l3 [Hfill [Ha2 [Hl2 [Hn2 [HU2 HS2]]]]]]]].
      * exists (a ++ [t]), l2'. rewrite <- app_assoc. split; [exact Ha1|split; [exact Hl|exact HU1]].
      * exact Hn.
      * rewrite Ha1, map_length, app_length. rewrite Ha, map_length in Hf. cbn [length]. lia.
      * exists s2, a2, l3. split; [exact Hfill|split; [exact Ha2|split; [exact Hl2|split; [exact Hn2|split; [exact HU2|exact (Same_trans _ _ _ HS1 HS2)]]]]].
    + apply Nat.ltb_ge in E. rewrite Ha, map_length in E. exists s, a, l2. split; [reflexivity|split; [exact Ha|split; [exact Hl|split; [exact E|split; [exact HU|apply Same_refl]]]]].
Qed.

Lemma peek_up : forall s t l, Up s (t :: l) ->
  exists s1, peek P s = Ok (Some t, s1) /\ Up s1 (t :: l) /\ Same s s1.
Proof.
  intros s t l H. destruct (fill_up 1 1 s _ H) as [s1 [a [l2 [Hf [Ha [Hl [Hn [HU HS]]]]]]]]; [cbn; lia|lia|].
  destruct a as [|t0 a]; [cbn in Hn; lia|]. injection Hl as <- Hl. exists s1. split; [|split; [exists (t :: a), l2; split; [exact Ha|split; [cbn [app]; rewrite Hl; reflexivity|exact HU]]|exact HS]].
  unfold peek, peek_k. unfold bind at 1. unfold fill. rewrite Hf. unfold bind at 1. unfold get at 1. rewrite Ha. reflexivity.
Qed.

Lemma peek_kind_up : forall s t l, Up s (t :: l) ->
  exists s1, peek_kind P s = Ok (Some (tk t), s1) /\ Up s1 (t :: l) /\ Same s s1.
Proof.
  intros s t l H. destruct (peek_up s t l H) as [s1 [Hp [HU HS]]]. exists s1. split; [|split; assumption].
  unfold peek_kind, peek_kind_k. unfold bind at 1. change (peek_k P 1) with (peek P). rewrite Hp. reflexivity.
Qed.

Lemma starts_declaration_up : forall (s: pstate) t l, Up s (t :: l) ->
  exists s1, starts_declaration P s = Ok (kind_in (tk t) tbl_DECL_START, s1) /\ Up s1 (t :: l) /\ Same s s1.
Proof.
  intros s t l HU. destruct (peek_kind_up s t l HU) as [s1 [H1 [HU1 HS1]]]. exists s1. split; [|split; assumption].
  unfold starts_declaration. unfold bind. rewrite H1. reflexivity.
Qed.

Lemma advance_up : forall s t l, Up s (t :: l) ->
  exists s2, advance P s = Ok (t, s2) /\ Up s2 l /\ Adv t s s2.
Proof.
  intros s t l H. destruct (fill_up 1 1 s _ H) as [s1 [a [l2 [Hf [Ha [Hl [Hn [HU [HS1 [HS2 [HS3 [K4 T4]]]]]]]]]]]]; [cbn; lia|lia|].
  destruct a as [|t0 a]; [cbn in Hn; lia|]. injection Hl as <- Hl. eexists. split; [|split].
  - unfold advance, next_tok. unfold bind at 1. unfold bind at 1. unfold fill. rewrite Hf, Ha. reflexivity.
  - exists a, l2. cbn [after scopes raw]. split; [reflexivity|split; [exact Hl|exact HU]].
  - split; [cbn [before]; congruence|split; [cbn [idx]; congruence|split; [cbn [ticks]; congruence|]]].
    split; [exact K4|]. rewrite <- T4. unfold tot. cbn [idx after raw]. rewrite Ha. fold (map (@Some tok) a). cbn [map length]. lia.
Qed.

Lemma accept_hit : forall s t l k, Up s (t :: l) -> kind_eqb (tk t) k = true ->
  exists s2, accept P k s = Ok (Some t, s2) /\ Up s2 l /\ Adv t s s2.
Proof.
  intros s t l k H Hk. destruct (peek_up s t l H) as [s1 [Hp [HU HS]]].
  destruct (advance_up s1 t l HU) as [s2 [Ha [HU2 HA]]]. exists s2. split; [|split; [exact HU2|eapply Same_Adv; eauto]].
  unfold accept. unfold bind at 1. rewrite Hp. rewrite Hk. unfold bind at 1. rewrite Ha. reflexivity.
Qed.

Lemma accept_miss : forall s t l k, Up s (t :: l) -> kind_eqb (tk t) k = false ->
  exists s1, accept P k s = Ok (None, s1) /\ Up s1 (t :: l) /\ Same s s1.
Proof.
  intros s t l k H Hk. destruct (peek_up s t l H) as [s1 [Hp [HU HS]]]. exists s1. split; [|split; assumption].
  unfold accept. unfold bind at 1. rewrite Hp. rewrite Hk. reflexivity.
Qed.

Lemma expect_up : forall s t l k, Up s (t :: l) -> kind_eqb (tk t) k = true ->
  exists s2, expect P k s = Ok (t, s2) /\ Up s2 l /\ Adv t s s2.
Proof.
  intros s t l k H Hk. destruct (advance_up s t l H) as [s2 [Ha [HU HA]]]. exists s2. split; [|split; assumption].
  unfold expect. unfold bind at 1. rewrite Ha. rewrite Hk. reflexivity.
Qed.

Lemma peek2_up : forall s t1 t2 l, Up s (t1 :: t2 :: l) ->
  exists s1, peek_kind_k P 2 s = Ok (Some (tk t2), s1) /\ Up s1 (t1 :: t2 :: l) /\ Same s s1.
Proof.
  intros s t1 t2 l H. destruct (fill_up 2 2 s _ H) as [s1 [a [l2 [Hf [Ha [Hl [Hn [HU HS]]]]]]]]; [cbn; lia|lia|].
  destruct a as [|a1 [|a2 a]]; cbn in Hn; try lia. injection Hl as <- <- Hl.
  exists s1. split; [|split; [exists (t1 :: t2 :: a), l2; split; [exact Ha|split; [cbn [app]; rewrite Hl; reflexivity|exact HU]]|exact HS]].
  unfold peek_kind_k, peek_k. unfold bind at 1. unfold bind at 1. unfold fill. rewrite Hf. unfold bind at 1. unfold get at 1. rewrite Ha. reflexivity.
Qed.

Lemma reset_one : forall s t b mk l, before P s = Some t :: b -> idx P s = S mk -> Up s l ->
  exists s', reset P mk s = Ok (tt, s') /\ Up s' (t :: l) /\ before P s' = b /\ idx P s' = mk /\ ticks P s' = ticks P s /\ SC s s'.
Proof.
  intros s t b mk l Hb Hi [a [l2 [Ha [Hl HU]]]]. eexists. split; [|split; [|split; [|split; [|split]]]].
  - unfold reset. rewrite Hi, Hb. assert (E: nsub (S mk) mk = 1). { clear. induction mk; [reflexivity|exact IHmk]. }
    rewrite E. cbn [unwind]. reflexivity.
  - exists (t :: a), l2. cbn [after scopes raw map]. rewrite Ha. split; [reflexivity|split; [cbn; congruence|exact HU]].
  - reflexivity.
  - reflexivity.
  - reflexivity.
  - split; [exact (fun H => H)|]. unfold tot. cbn [idx after raw]. rewrite Hi. cbn [length]. lia.
Qed.

Lemma tok_coord_eq : forall (t: tok) (s: pstate), tok_coord P t s = Ok (mkCoord P (curfile P s) (tp t), s).
Proof. reflexivity. Qed.
Lemma mark_eq : forall s, mark P s = Ok (idx P s, s).
Proof. reflexivity. Qed.

Lemma bind_ok : forall A B (m: M P A) (f: A -> M P B) s a s1, m s = Ok (a, s1) -> bind P m f s = f a s1.
Proof. intros A B m f s a s1 H. unfold bind. rewrite H. reflexivity. Qed.
Lemma bind_then : forall A B (m: M P A) (f: A -> M P B) s a s1 r, m s = Ok (a, s1) -> f a s1 = r -> bind P m f s = r.
Proof. intros A B m f s a s1 r H <-. exact (bind_ok A B m f s a s1 H). Qed.

Lemma Up_initial : forall (s: pstate) l, after P s = [] -> UpR (scopes P s) (raw P s) l -> Up s l.
Proof. intros s l Ha HU. exists [], l. rewrite Ha. split; [reflexivity|split; [reflexivity|exact HU]]. Qed.

(* [UpEnd s l]: the parser will see exactly l and then the end of the input *)
Definition UpEnd (s: pstate) (l: list tok) : Prop := Up s l /\ tot s = idx P s + length l.
Definition AtEOF (s: pstate) : Prop := exists r, after P s = None :: r.


Lemma UpEnd_ran : forall s s' le rest, UpEnd s (le ++ rest) -> Up s' rest -> idx P s' = idx P s + length le -> tot s' = tot s -> UpEnd s' rest.
Proof. intros s s' le rest [_ Ht] HU Hi Htt. split; [exact HU|]. rewrite Htt, Ht, Hi, app_length. lia. Qed.

Lemma peek_end_cost : forall s: pstate, UpEnd s [] ->
  exists s1, peek P s = Ok (None, s1) /\ AtEOF s1 /\ scopes P s1 = scopes P s /\ idx P s1 = idx P s /\ ticks P s1 = ticks P s.
Proof.
  intros s [[a [l2 [Ha [Hl HU]]]] Ht]. destruct a as [|? ?]; [|discriminate]. destruct l2 as [|? ?]; [|discriminate].
  cbn [map] in Ha. unfold tot in Ht. rewrite Ha in Ht. cbn [length] in Ht. destruct (raw P s) as [|i r] eqn:Er; [|cbn [length] in Ht; lia].
  eexists. split.
  - unfold peek, peek_k. unfold bind at 1. unfold fill. cbn [fill_aux]. unfold bind at 1. unfold get at 1. rewrite Ha. cbn [length Nat.ltb Nat.leb].
    unfold bind at 1. unfold deliver1. rewrite Er. unfold bind at 1. unfold get at 1. cbn [after]. rewrite Ha. cbn [app]. unfold last_is_none. cbn [last_opt].
    unfold ret at 1. unfold bind at 1. unfold get at 1. cbn [after nth_error Nat.pred]. reflexivity.
  - split; [exists []; reflexivity|repeat split].
Qed.
Lemma peek_end : forall s, UpEnd s [] -> exists s1, peek P s = Ok (None, s1) /\ AtEOF s1 /\ scopes P s1 = scopes P s.
Proof. intros s H. destruct (peek_end_cost s H) as [s1 [H1 [H2 [H3 _]]]]. exists s1. split; [exact H1|split; [exact H2|exact H3]]. Qed.

Lemma peek_eof : forall s, AtEOF s -> peek P s = Ok (None, s).
Proof.
  intros s [r Ha]. unfold peek, peek_k. unfold bind at 1. unfold fill. cbn [fill_aux]. unfold bind at 1. unfold get at 1. rewrite Ha. cbn [length Nat.ltb Nat.leb].
  unfold ret at 1. unfold bind at 1. unfold get at 1. rewrite Ha. reflexivity.
Qed.

Lemma fill1_nonempty : forall (s: pstate) x r, after P s = x :: r -> fill P 1 s = Ok (tt, s).
Proof. intros s x r H. unfold fill, fill_aux, bind, get. rewrite H. reflexivity. Qed.
Lemma peek_nonempty : forall (s: pstate) x r, after P s = x :: r -> peek P s = Ok (x, s).
Proof. intros s x r H. unfold peek, peek_k, bind. rewrite (fill1_nonempty _ _ _ H). unfold get. rewrite H. reflexivity. Qed.

Lemma deliver1_ticks : forall (s s': pstate) u, deliver1 P s = Ok (u, s') -> ticks P s' = ticks P s.
Proof.
  intros s s' u H. unfold deliver1 in H. destruct (raw P s) as [|[k v p fa|msg p f|] rw]; try discriminate.
  - injection H as _ <-. reflexivity.
  - destruct (kind_eqb k K_LBRACE); [|destruct (kind_eqb k K_RBRACE); [destruct (scopes P s) as [|? [|? ?]]; try discriminate|]];
      injection H as _ <-; reflexivity.
Qed.
Lemma fill_aux_ticks : forall fuel n (s s': pstate) u, fill_aux P fuel n s = Ok (u, s') -> ticks P s' = ticks P s.
Proof.
  induction fuel as [|fu IH]; intros n s s' u H; cbn [fill_aux] in H; [apply ret_Ok in H as [_ ->]; reflexivity|].
  unfold bind at 1, get at 1 in H. destruct (length (after P s) <? n); [|apply ret_Ok in H as [_ ->]; reflexivity].
  apply bind_Ok in H as (u1 & s1 & Ed & H). apply deliver1_ticks in Ed as <-. unfold bind, get in H.
  destruct (last_is_none P (after P s1)); [apply ret_Ok in H as [_ ->]; reflexivity|eapply IH; exact H].
Qed.

Lemma peek_spec : forall (s s1: pstate) x, peek P s = Ok (x, s1) -> (exists r, after P s1 = x :: r) /\ ticks P s1 = ticks P s.
Proof.
  intros s s1 x H. unfold peek, peek_k in H. apply bind_Ok in H as (u & s0 & Ef & H). apply fill_aux_ticks in Ef as <-.
  unfold bind, get in H. destruct (after P s0) as [|y r] eqn:Ea; [discriminate|]. apply ret_Ok in H as [-> ->].
  split; [exists r; exact Ea|reflexivity].
Qed.
Lemma peek_idem : forall (s s1: pstate) x, peek P s = Ok (x, s1) -> peek P s1 = Ok (x, s1).
Proof. intros s s1 x H. destruct (peek_spec _ _ _ H) as [[r Hr] _]. eapply peek_nonempty. exact Hr. Qed.
Lemma advance_after_peek : forall (s s1 s2: pstate) x t,
  peek P s = Ok (x, s1) -> advance P s1 = Ok (t, s2) -> x = Some t /\ ticks P s2 = (ticks P s1 + 1)%N.
Proof.
  intros s s1 s2 x t Hp Ha. destruct (peek_spec _ _ _ Hp) as [[r Hr] _].
  unfold advance, next_tok, bind in Ha. rewrite (fill1_nonempty _ _ _ Hr), Hr in Ha.
  destruct x as [x'|]; [injection Ha as <- <-; split; reflexivity|discriminate].
Qed.

(* [Ev run s Q]: for every large enough fuel, [run] started in s returns one and the same value and final state, and these
   satisfy Q.  Every level statement of the forward theorems has this shape; the rules below compose such runs along [bind],
   so that a proof walks a production once, front to back, and never mentions the fuel. *)
Definition Ev {A} (run: nat -> M P A) (s: pstate) (Q: A -> pstate -> Prop) : Prop :=
  exists f0 a s', (forall f, f0 <= f -> run f s = Ok (a, s')) /\ Q a s'.

Lemma Ev_ret : forall A (a: A) s (Q: A -> pstate -> Prop), Q a s -> Ev (fun _ => ret P a) s Q.
Proof. intros A a s Q H. exists 0, a, s. split; [reflexivity|exact H]. Qed.

Lemma Ev_bind : forall A B (m: nat -> M P A) (g: nat -> A -> M P B) s Q,
  Ev m s (fun a s1 => Ev (fun f => g f a) s1 Q) -> Ev (fun f => bind P (m f) (g f)) s Q.
Proof.
  intros A B m g s Q [f1 [a [s1 [H1 [f2 [b [s2 [H2 HQ]]]]]]]]. exists (Nat.max f1 f2), b, s2. split; [|exact HQ].
  intros f Hf. unfold bind. rewrite (H1 f) by lia. apply H2. lia.
Qed.

Lemma Ev_step : forall A B (m: M P A) (g: nat -> A -> M P B) s a s1 Q,
  m s = Ok (a, s1) -> Ev (fun f => g f a) s1 Q -> Ev (fun f => bind P m (g f)) s Q.
Proof. intros A B m g s a s1 Q H H2. apply (Ev_bind A B (fun _ => m) g). exists 0, a, s1. split; [intros; exact H|exact H2]. Qed.

Lemma Ev_S : forall A (run body: nat -> M P A) s Q, (forall f, run (S f) = body f) -> Ev body s Q -> Ev run s Q.
Proof.
  intros A run body s Q E [f0 [a [s' [H HQ]]]]. exists (S f0), a, s'. split; [|exact HQ].
  intros f Hf. destruct f as [|f]; [lia|]. rewrite E. apply H. lia.
Qed.

(* a run that, after some steps at fuel d + f, goes on as [body] at fuel e + f from another state *)
Lemma Ev_shift : forall A (run body: nat -> M P A) d e s s1 Q, (forall f, run (d + f) s = body (e + f) s1) -> Ev body s1 Q -> Ev run s Q.
Proof.
  intros A run body d e s s1 Q E [f0 [a [s' [H HQ]]]]. exists (d + f0), a, s'. split; [|exact HQ].
  intros f Hf. replace f with (d + (f - d)) by lia. rewrite E. apply H. lia.
Qed.
Lemma Ev_const : forall A (run: nat -> M P A) s a s1 (Q: A -> pstate -> Prop), (forall f, run (S f) s = Ok (a, s1)) -> Q a s1 -> Ev run s Q.
Proof. intros A run s a s1 Q E HQ. apply (Ev_shift A run (fun _ => ret P a) 1 0 s s1 Q E). apply Ev_ret. exact HQ. Qed.

Lemma Ev_assoc : forall A B C (m: nat -> M P A) (g: nat -> A -> M P B) (h: nat -> B -> M P C) s Q,
  Ev (fun f => bind P (bind P (m f) (g f)) (h f)) s Q -> Ev (fun f => bind P (m f) (fun a => bind P (g f a) (h f))) s Q.
Proof.
  intros A B C m g h s Q [f0 [c [s' [H HQ]]]]. exists f0, c, s'. split; [|exact HQ]. intros f Hf. rewrite <- (H f Hf).
  unfold bind. destruct (m f s) as [[a s1]| | |]; reflexivity.
Qed.

Lemma Ev_mono : forall A (run: nat -> M P A) s (Q Q': A -> pstate -> Prop),
  Ev run s Q -> (forall a s', Q a s' -> Q' a s') -> Ev run s Q'.
Proof. intros A run s Q Q' [f0 [a [s' [H HQ]]]] HI. exists f0, a, s'. split; [exact H|apply HI; exact HQ]. Qed.
End SL.

Arguments Ev {P A} run s Q.

(* [cost_tac] closes a goal that relates the first and the last state of a run by one of [Ran], [RanR], [Same], [Adv], [SC], from
   such facts about the steps in between: the counters by [lia]; the conjunct of [SC] about typedef names, an implication, by
   chaining the implications of the steps ([sc_tac]). *)
Ltac sc_tac :=
  repeat match goal with H: _ /\ _ |- _ => destruct H end;
  first [ lia
        | (split; [intros; repeat match goal with H: ?A -> _, H2: ?A |- _ => specialize (H H2) end; try assumption; tauto | lia])
        | (intros; repeat match goal with H: ?A -> _, H2: ?A |- _ => specialize (H H2) end; try assumption; tauto) ].
Ltac cost_tac :=
  unfold Ran, RanR, Same, Adv, SC in *;
  repeat match goal with H: _ /\ _ |- _ => destruct H end;
  do 4 (simpl length in *; rewrite ?app_length in * );
  first [lia | (split; [lia|split; [lia|sc_tac]]) | (split; [lia|sc_tac]) | sc_tac].

