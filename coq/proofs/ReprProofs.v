(* C15: facts about repr() of AST nodes and strings. *)
From Coq Require Import List NArith Bool Arith Lia.
Import ListNotations.
From PV Require Import Regex Base AstDefs AstSpec AstImpl PyRepr NodeModel NodeProofs.
Open Scope N_scope.

(* every keyword that Node.__repr__ prints (slots[:-2]) is a constructor parameter, in
   the same order, and together with coord they are all the parameters: eval(repr(n))
   calls the constructor with exactly the keywords it accepts, none missing *)
Theorem slots_cover_init :
  forallb (fun ci => list_str_eqb (firstn (length (ci_slots ci) - 2) (ci_slots ci) ++ [s_coord]) (ci_params ci)) ast_impl = true.
Proof. vm_compute. reflexivity. Qed.

(* the last two slots are coord and __weakref__ for every class, so slots[:-2] drops exactly those *)
Theorem slots_tail :
  forallb (fun ci => list_str_eqb (skipn (length (ci_slots ci) - 2) (ci_slots ci)) [s_coord; s_weakref]) ast_impl = true.
Proof. vm_compute. reflexivity. Qed.

Lemma repr_quote_cases : forall s, repr_quote s = 39 \/ repr_quote s = 34.
Proof. intros s. unfold repr_quote. destruct (has_chr QUOTE s && negb (has_chr DQUOTE s)); auto. Qed.

(* the escapes \x, \u, \U and the number of hex digits each takes *)
Definition hex_escapes : list (N * nat) := [(120, 2%nat); (117, 4%nat); (85, 8%nat)].

Inductive repr_char_shape (q c: N) : str -> Prop :=
| RC_esc : c = q \/ c = 92 -> repr_char_shape q c [92; c]
| RC_ctl : forall e, In (c, e) [(9, 116); (10, 110); (13, 114)] -> repr_char_shape q c [92; e]
| RC_plain : c <> q -> c <> 92 -> c <> 10 -> repr_char_shape q c [c]
| RC_hex : forall e w, In (e, w) hex_escapes -> (c < 4294967296 -> c < 16 ^ N.of_nat w) ->
           repr_char_shape q c (92 :: e :: hex_fixed w c []).

Lemma repr_char_shape_of : forall pr q c, repr_char_shape q c (repr_char pr q c).
Proof.
  intros pr q c. unfold repr_char, BSLASH.
  destruct (N.eqb_spec c q) as [Eq|Nq]; [apply RC_esc; auto|].
  destruct (N.eqb_spec c 92) as [Eb|Nb]; [apply RC_esc; auto|]. cbn [orb].
  destruct (N.eqb_spec c 9) as [->|_]; [apply RC_ctl; cbn; auto|].
  destruct (N.eqb_spec c 10) as [->|N10]; [apply RC_ctl; cbn; auto|].
  destruct (N.eqb_spec c 13) as [->|_]; [apply RC_ctl; cbn; auto|].
  destruct (N.ltb c 32 || N.eqb c 127) eqn:Ectl.
  { apply (RC_hex _ _ 120 2%nat); [cbn; auto|intros _]. apply orb_true_iff in Ectl.
    destruct Ectl as [H|H]; [apply N.ltb_lt in H|apply N.eqb_eq in H]; cbn; lia. }
  destruct (N.ltb c 127); [apply RC_plain; assumption|].
  destruct (pr c); [apply RC_plain; assumption|].
  destruct (N.leb_spec c 255); [apply (RC_hex _ _ 120 2%nat); [cbn; auto|intros _; cbn; lia]|].
  destruct (N.leb_spec c 65535); [apply (RC_hex _ _ 117 4%nat); [cbn; auto|intros _; cbn; lia]|].
  apply (RC_hex _ _ 85 8%nat); [cbn; auto|intros Hc; exact Hc].
Qed.

Lemma hex_fixed_no_nl : forall w n acc, ~ In 10 acc -> ~ In 10 (hex_fixed w n acc).
Proof.
  induction w as [|w IH]; intros n acc Ha; cbn [hex_fixed]; [exact Ha|].
  apply IH. intros [H|H]; [|tauto]. unfold hex_digit in H. destruct (N.ltb (N.land n 15) 10); lia.
Qed.

Lemma repr_char_no_nl : forall pr q c, q <> 10 -> ~ In 10 (repr_char pr q c).
Proof.
  intros pr q c Hq. destruct (repr_char_shape_of pr q c) as [[->| ->]|e He|_ _ H|e w He _].
  - intros [H|[H|[]]]; [discriminate|congruence].
  - intros [H|[H|[]]]; discriminate.
  - destruct He as [[= _ <-]|[[= _ <-]|[[= _ <-]|[]]]]; intros [H|[H|[]]]; discriminate.
  - intros [H'|[]]. congruence.
  - destruct He as [[= <- _]|[[= <- _]|[[= <- _]|[]]]]; (intros [H|[H|H]]; [discriminate|discriminate|]);
      revert H; apply hex_fixed_no_nl; intros [].
Qed.

(* repr of a string never contains a raw newline (so the indentation
   replace("\n", ...) of Node.__repr__ never touches string contents) *)
Theorem repr_str_no_newline : forall pr s, ~ In 10 (py_repr_with pr s).
Proof.
  intros pr s. unfold py_repr_with.
  assert (Hq: repr_quote s <> 10) by (destruct (repr_quote_cases s) as [-> | ->]; discriminate).
  intros [H|H]; [congruence|].
  apply in_app_or in H. destruct H as [H|[H|[]]]; [|congruence].
  apply in_flat_map in H. destruct H as (c & _ & Hc). revert Hc. apply repr_char_no_nl. exact Hq.
Qed.
