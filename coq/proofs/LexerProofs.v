(* C09, C16: progress, termination, losslessness of the lexer model; where a token's kind comes from. *)
From Coq Require Import List NArith Bool Arith Lia.
Import ListNotations.
From PV Require Import Regex Base UnicodeTables LexTables PyRepr Lexer RegexLemmas.
Open Scope N_scope.

(* Table facts, recomputed from the regenerated tables on every build. *)
Lemma rules_not_nullable : forallb (fun r => negb (nullable (rre r))) regex_rules = true.
Proof. vm_compute. reflexivity. Qed.

Lemma rules_stars_ok : forallb (fun r => stars_ok (rre r)) regex_rules = true.
Proof. vm_compute. reflexivity. Qed.

Lemma fixed_nonempty :
  forallb (fun b => forallb (fun e => negb (Nat.eqb (length (snd e)) 0)) (snd b)) fixed_by_first = true.
Proof. vm_compute. reflexivity. Qed.

Lemma forallb_In {A} (f: A -> bool) l x : forallb f l = true -> In x l -> f x = true.
Proof. intros H. apply (proj1 (forallb_forall f l) H). Qed.

Definition suffix_of (a b: str) : Prop := exists p, b = p ++ a.

Lemma suffix_refl a : suffix_of a a.
Proof. exists []. reflexivity. Qed.
Lemma suffix_trans a b c : suffix_of a b -> suffix_of b c -> suffix_of a c.
Proof. intros [p ->] [q ->]. exists (q ++ p). now rewrite app_assoc. Qed.
Lemma suffix_cons x a : suffix_of a (x :: a).
Proof. exists [x]. reflexivity. Qed.
Lemma suffix_skipn n (a: str) : suffix_of (skipn n a) a.
Proof. exists (firstn n a). symmetry. apply firstn_skipn. Qed.
Lemma suffix_len a b : suffix_of a b -> (length a <= length b)%nat.
Proof. intros [p ->]. rewrite app_length. lia. Qed.

Lemma starts_with_app : forall p s, starts_with p s = true -> exists s', s = p ++ s'.
Proof.
  induction p as [|x p IH]; intros s H.
  - exists s. reflexivity.
  - destruct s as [|y s]; [discriminate|]. cbn in H. apply andb_true_iff in H. destruct H as [Hxy Hp].
    apply N.eqb_eq in Hxy. subst. destruct (IH _ Hp) as [s' ->]. exists s'. reflexivity.
Qed.

Lemma skip_ws_suffix : forall l off off' l', skip_ws off l = (off', l') -> suffix_of l' l.
Proof.
  induction l as [|c l IH]; intros off off' l' H; cbn in H.
  - inversion H. apply suffix_refl.
  - destruct (is_blank c).
    + eapply suffix_trans; [eapply IH; eauto|apply suffix_cons].
    + inversion H. apply suffix_refl.
Qed.

Lemma split_line_app : forall s a b, split_line s = (a, b) -> s = a ++ b.
Proof.
  induction s as [|c s IH]; intros a b H; cbn in H.
  - inversion H. reflexivity.
  - destruct (N.eqb c 10).
    + inversion H. reflexivity.
    + destruct (split_line s) as [a0 b0]. inversion H; subst. cbn. f_equal. apply IH. reflexivity.
Qed.

Lemma firstn_len_app {A} (p s: list A) : firstn (length p) (p ++ s) = p.
Proof. rewrite firstn_app, Nat.sub_diag, firstn_all. cbn. apply app_nil_r. Qed.
Lemma skipn_len_app {A} (p s: list A) : skipn (length p) (p ++ s) = s.
Proof. rewrite skipn_app, Nat.sub_diag, skipn_all. reflexivity. Qed.


Lemma assoc_str_In : forall A (x: str) (l: list (str * A)) v, assoc_str x l = Some v -> In (x, v) l.
Proof.
  intros A x l v. induction l as [|[k w] l IH]; cbn [assoc_str]; [discriminate|].
  destruct (str_eqb x k) eqn:E.
  - intros H. injection H as <-. apply str_eqb_iff in E. subst k. left. reflexivity.
  - intros H. right. apply IH. exact H.
Qed.

Lemma first_rule_match : forall rules n0 s r len, first_rule rules n0 s = Some (r, len) ->
  In r rules /\ exists s', match_re n0 (rre r) s = Some (len, s').
Proof.
  induction rules as [|r0 rs IH]; intros n0 s r len H; [discriminate|]. cbn [first_rule] in H.
  destruct (match_re n0 (rre r0) s) as [[l s1]|] eqn:E.
  - injection H as <- <-. split; [left; reflexivity|eauto].
  - destruct (IH _ _ _ _ H) as [Hin Hm]. split; [right; exact Hin|exact Hm].
Qed.

Lemma rule_word_nonempty : forall r p, In r regex_rules -> in_re (rre r) p -> p <> [].
Proof.
  intros r p Hr Hp ->. pose proof (forallb_In _ _ _ rules_not_nullable Hr) as Hn. cbv beta in Hn.
  rewrite (in_re_nil_nullable _ _ Hp eq_refl) in Hn. discriminate.
Qed.

Lemma bucket_scan_sound : forall b s k lit, bucket_scan b s = Some (k, lit) ->
  In (k, lit) b /\ starts_with lit s = true.
Proof.
  induction b as [|[k0 l0] b IH]; intros s k lit H; cbn in H; [discriminate|].
  destruct (starts_with l0 s) eqn:Hs.
  - inversion H; subst. split; [left; reflexivity|exact Hs].
  - destruct (IH _ _ _ H). split; [right; assumption|assumption].
Qed.

Lemma bucket_of_in : forall c bs b, bucket_of c bs = Some b -> In (c, b) bs.
Proof.
  induction bs as [|[c' b'] bs IH]; intros b H; cbn in H; [discriminate|].
  destruct (N.eqb c c') eqn:E.
  - apply N.eqb_eq in E. inversion H; subst. left; reflexivity.
  - right. apply IH. exact H.
Qed.

Lemma fixed_match_in : forall s e, fixed_match s = Some e ->
  exists cb, In cb fixed_by_first /\ In e (snd cb) /\ starts_with (snd e) s = true.
Proof.
  intros [|c s] [k lit] H; [discriminate|]. unfold fixed_match in H.
  destruct (bucket_of c fixed_by_first) as [b|] eqn:Hb; [|discriminate].
  apply bucket_scan_sound in H. apply bucket_of_in in Hb. exists (c, b). tauto.
Qed.

Lemma fixed_match_sound : forall s k lit, fixed_match s = Some (k, lit) ->
  lit <> [] /\ exists s', s = lit ++ s'.
Proof.
  intros s k lit H. apply fixed_match_in in H. destruct H as (cb & Hcb & He & Hsw).
  split; [|apply starts_with_app, Hsw].
  pose proof (forallb_In _ _ _ (forallb_In _ _ _ fixed_nonempty Hcb) He) as Hne. intros ->. discriminate.
Qed.

Fixpoint sorted_desc (b: list (kind * str)) : bool :=
  match b with
  | x :: ((y :: _) as r) => Nat.leb (length (snd y)) (length (snd x)) && sorted_desc r
  | _ => true
  end.

Definition entry_eqb (a b: kind * str) : bool := kind_eqb (fst a) (fst b) && str_eqb (snd a) (snd b).
Definition in_bucket (e: kind * str) (b: list (kind * str)) : bool := existsb (entry_eqb e) b.

Lemma buckets_sorted : forallb (fun b => sorted_desc (snd b)) fixed_by_first = true.
Proof. vm_compute. reflexivity. Qed.

Lemma buckets_complete :
  forallb (fun e => match snd e with
                    | c :: _ => match bucket_of c fixed_by_first with Some b => in_bucket e b | None => false end
                    | [] => false end) fixed_tokens = true.
Proof. vm_compute. reflexivity. Qed.

Lemma buckets_sound :
  forallb (fun cb => forallb (fun e => existsb (entry_eqb e) fixed_tokens &&
                                       match snd e with c :: _ => N.eqb c (fst cb) | [] => false end) (snd cb))
          fixed_by_first = true.
Proof. vm_compute. reflexivity. Qed.

Lemma sorted_desc_head : forall b x e, sorted_desc (x :: b) = true -> In e b ->
  (length (snd e) <= length (snd x))%nat.
Proof.
  induction b as [|y b IH]; intros x e Hs Hin; [destruct Hin|].
  cbn [sorted_desc] in Hs. apply andb_true_iff in Hs. destruct Hs as [Hle Hs]. apply Nat.leb_le in Hle.
  destruct Hin as [->|Hin]; [exact Hle|].
  specialize (IH y e Hs Hin). lia.
Qed.

Lemma sorted_desc_tail : forall b x, sorted_desc (x :: b) = true -> sorted_desc b = true.
Proof. intros [|y b] x H; [reflexivity|]. cbn [sorted_desc] in H. apply andb_true_iff in H. tauto. Qed.

Lemma bucket_scan_longest : forall b s k lit,
  sorted_desc b = true -> bucket_scan b s = Some (k, lit) ->
  forall e, In e b -> starts_with (snd e) s = true -> (length (snd e) <= length lit)%nat.
Proof.
  induction b as [|[k0 l0] b IH]; intros s k lit Hs H e Hin Hsw; [destruct Hin|].
  cbn [bucket_scan] in H. destruct (starts_with l0 s) eqn:E.
  - inversion H; subst. destruct Hin as [<-|Hin]; [cbn; lia|].
    apply (sorted_desc_head _ _ _ Hs Hin).
  - destruct Hin as [<-|Hin]; [cbn in Hsw; congruence|].
    exact (IH _ _ _ (sorted_desc_tail _ _ Hs) H e Hin Hsw).
Qed.

Lemma bucket_scan_none : forall b s, bucket_scan b s = None ->
  forall e, In e b -> starts_with (snd e) s = false.
Proof.
  induction b as [|[k0 l0] b IH]; intros s H e Hin; [destruct Hin|].
  cbn [bucket_scan] in H. destruct (starts_with l0 s) eqn:E; [discriminate|].
  destruct Hin as [<-|Hin]; [exact E|]. eapply IH; eauto.
Qed.

Lemma in_bucket_In : forall e b, in_bucket e b = true -> exists e', In e' b /\ snd e' = snd e.
Proof.
  intros e b H. unfold in_bucket in H. apply existsb_exists in H. destruct H as (e' & Hin & He).
  unfold entry_eqb in He. apply andb_true_iff in He. destruct He as [_ He]. apply str_eqb_iff in He.
  exists e'. split; auto.
Qed.

(* C09 longest match, fixed tokens: whenever some fixed token is a prefix of
   the input, the bucket scan answers with a fixed token at least as long. *)
Theorem fixed_longest : forall s k lit,
  In (k, lit) fixed_tokens -> starts_with lit s = true ->
  exists k' lit', fixed_match s = Some (k', lit') /\ (length lit <= length lit')%nat.
Proof.
  intros s k lit Hin Hsw.
  pose proof (forallb_In _ _ _ buckets_complete Hin) as Hc. cbn [snd] in Hc.
  destruct lit as [|c lit0]; [discriminate|].
  destruct (bucket_of c fixed_by_first) as [b|] eqn:Hb; [|discriminate].
  apply in_bucket_In in Hc. destruct Hc as (e' & He' & Hsnd). cbn [snd] in Hsnd.
  destruct s as [|c' s0]; [discriminate|].
  assert (c' = c) as ->.
  { cbn in Hsw. apply andb_true_iff in Hsw. destruct Hsw as [H1 _]. apply N.eqb_eq in H1. auto. }
  unfold fixed_match. rewrite Hb.
  pose proof (forallb_In _ _ _ buckets_sorted (bucket_of_in _ _ _ Hb)) as Hso. cbn [snd] in Hso.
  destruct (bucket_scan b (c :: s0)) as [[k' lit']|] eqn:Hscan.
  - exists k', lit'. split; [reflexivity|].
    pose proof (bucket_scan_longest _ _ _ _ Hso Hscan e' He') as Hl. rewrite Hsnd in Hl. apply Hl. exact Hsw.
  - pose proof (bucket_scan_none _ _ Hscan e' He') as Hf. rewrite Hsnd in Hf. congruence.
Qed.

Lemma choose_best_inv : forall n0 s b, choose_best n0 s = Some b ->
  match b with
  | BRegex r len => first_rule regex_rules n0 s = Some (r, len)
  | BFixed k len => exists lit, fixed_match s = Some (k, lit) /\ len = length lit
  end.
Proof.
  intros n0 s b H. unfold choose_best in H.
  destruct (fixed_match s) as [[k lit]|]; destruct (first_rule regex_rules n0 s) as [[r len]|]; [destruct (Nat.ltb len (length lit))| | |discriminate];
    injection H as <-; eauto.
Qed.

(* the token chosen is the longer of the regex match and the fixed token; the regex wins ties *)
Theorem choose_best_longer : forall n0 s,
  match choose_best n0 s, first_rule regex_rules n0 s, fixed_match s with
  | Some (BRegex r len), Some (r', len'), Some (_, lit) => r = r' /\ len = len' /\ (length lit <= len)%nat
  | Some (BFixed k len), Some (_, len'), Some (k', lit) => k = k' /\ len = length lit /\ (len' < len)%nat
  | Some (BRegex r len), Some (r', len'), None => r = r' /\ len = len'
  | Some (BFixed k len), None, Some (k', lit) => k = k' /\ len = length lit
  | None, None, None => True
  | _, _, _ => False
  end.
Proof.
  intros n0 s. unfold choose_best.
  destruct (fixed_match s) as [[k lit]|]; destruct (first_rule regex_rules n0 s) as [[r len]|]; auto.
  destruct (Nat.ltb len (length lit)) eqn:E.
  - apply Nat.ltb_lt in E. auto.
  - apply Nat.ltb_ge in E. auto.
Qed.

Theorem keyword_kind_spec : forall v,
  keyword_kind v = match assoc_str v keyword_map with Some k => k | None => K_ID end.
Proof. reflexivity. Qed.

Definition lex_advance (st: lexst) (p: str) : lexst :=
  mkLex (l_pos st + lenN p) (l_line_start st) (l_lineno st) (l_file st).

(* _match_token, case by case: the items, the new state and the new rest. *)
Inductive match_token_spec (n0: nat) (st: lexst) (rest: str) : list raw_item * lexst * str -> Prop :=
| MT_tok r k p rest' : rest = p ++ rest' -> p <> [] -> In r regex_rules -> in_re (rre r) p ->
    match ract r with A_TOKEN k' => k = k' | A_ID => k = keyword_kind p | A_ERROR _ => False end ->
    match_token_spec n0 st rest ([mk_tok st k p (l_pos st)], lex_advance st p, rest')
| MT_fixed k p rest' : rest = p ++ rest' -> p <> [] -> fixed_match rest = Some (k, p) ->
    match_token_spec n0 st rest ([mk_tok st k p (l_pos st)], lex_advance st p, rest')
| MT_err r msg mm p rest' : rest = p ++ rest' -> p <> [] -> In r regex_rules -> in_re (rre r) p -> ract r = A_ERROR msg ->
    (if str_eqb (rname r) name_BAD_CHAR_CONST then Some (msg_bad_char_const p) else msg) = Some mm ->
    match_token_spec n0 st rest ([mk_err st mm (l_pos st)], lex_advance st p, rest')
| MT_illegal c rest' : rest = [c] ++ rest' -> choose_best n0 rest = None ->
    match_token_spec n0 st rest ([mk_err st (msg_illegal c) (l_pos st)], lex_advance st [c], rest')
| MT_crash r : In r regex_rules -> ract r = A_ERROR None -> str_eqb (rname r) name_BAD_CHAR_CONST = false ->
    match_token_spec n0 st rest ([RCrash], st, rest)
| MT_nil : rest = [] -> match_token_spec n0 st rest ([], st, []).

Lemma match_token_cases : forall n0 st rest, match_token_spec n0 st rest (match_token n0 st rest).
Proof.
  intros n0 st rest. unfold match_token. cbv zeta.
  destruct (choose_best n0 rest) as [[r len|k len]|] eqn:Eb; [apply choose_best_inv in Eb..|].
  - destruct (first_rule_match _ _ _ _ _ Eb) as [Hr [s' Hm]]. apply match_re_lang in Hm. destruct Hm as (p & -> & -> & Hp).
    pose proof (rule_word_nonempty _ _ Hr Hp) as Hne. rewrite firstn_len_app, skipn_len_app.
    destruct (ract r) as [k| |msg] eqn:Ea.
    + apply (MT_tok _ _ _ r); auto. rewrite Ea. reflexivity.
    + apply (MT_tok _ _ _ r); auto. rewrite Ea. reflexivity.
    + replace (Nat.max 1 (length p)) with (length p) by (destruct p; [congruence|cbn [length]; lia]).
      rewrite skipn_len_app. destruct (if str_eqb _ _ then _ else _) as [mm|] eqn:Em.
      * apply (MT_err _ _ _ r msg); auto.
      * destruct (str_eqb _ _) eqn:En; [discriminate|]. subst msg. apply (MT_crash _ _ _ r); assumption.
  - destruct Eb as (lit & Ef & ->). destruct (fixed_match_sound _ _ _ Ef) as [Hne [s' ->]].
    rewrite firstn_len_app, skipn_len_app. apply MT_fixed; auto.
  - destruct rest as [|c rest']; [apply MT_nil|apply (MT_illegal _ _ _ c rest')]; auto.
Qed.

(* Where a token's kind comes from: a kind that no fixed token, keyword, identifier or directive has is
   the kind of a regex rule, and the token's text is a word of that rule. *)
Definition pp_kinds : list kind := [K_PPPRAGMA; K_PPPRAGMASTR; K_PPHASH].
Definition regex_only (P: kind -> bool) : bool :=
  forallb (fun b => forallb (fun kl => negb (P (fst kl))) (snd b)) fixed_by_first
  && forallb (fun kv => negb (P (snd kv))) keyword_map && negb (P K_ID) && forallb (fun k => negb (P k)) pp_kinds.

Definition tok_of_rule (P: kind -> bool) (i: raw_item) : Prop :=
  match i with
  | RTok k v _ _ _ => P k = true -> exists r, In r regex_rules /\ ract r = A_TOKEN k /\ in_re (rre r) v
  | _ => True
  end.

Lemma match_token_regex_tok : forall P, regex_only P = true ->
  forall n0 st rest, Forall (tok_of_rule P) (fst (fst (match_token n0 st rest))).
Proof.
  intros P T n0 st rest. unfold regex_only in T. rewrite !andb_true_iff in T. destruct T as [[[Tfx Tkw] Tid] _].
  destruct (match_token_cases n0 st rest) as [r k p s' _ _ Hr Hp Hk|k p s' _ _ Ef| | | |]; cbn [fst];
    [apply Forall_cons; [intros Hk'|apply Forall_nil]..|repeat constructor|repeat constructor|repeat constructor|constructor].
  - (* a rule's token has the rule's kind, or is an identifier or keyword *)
    destruct (ract r) as [k'| |msg] eqn:Ea; [subst k'; eauto|exfalso|destruct Hk]. subst k. revert Hk'. unfold keyword_kind.
    destruct (assoc_str p keyword_map) as [k|] eqn:E; [|apply negb_true_iff in Tid; congruence].
    apply assoc_str_In in E. apply (forallb_In _ _ _ Tkw) in E. apply negb_true_iff in E. cbn [snd] in E. congruence.
  - exfalso. apply fixed_match_in in Ef. destruct Ef as (cb & Hcb & He & _).
    pose proof (forallb_In _ _ _ (forallb_In _ _ _ Tfx Hcb) He) as Hn. cbn [fst] in Hn. rewrite Hk' in Hn. discriminate.
Qed.

(* what a directive line leaves in the item list: error reports, and tokens of three kinds only *)
Definition directive_item (i: raw_item) : Prop :=
  match i with RTok k _ _ _ _ => In k pp_kinds | RErr _ _ _ _ => True | RCrash => False end.

Lemma handle_ppline_spec : forall st rest items st' rest',
  handle_ppline st rest = (items, st', rest') -> suffix_of rest' rest /\ Forall directive_item items.
Proof.
  intros st rest items st' rest' H. unfold handle_ppline in H.
  destruct (split_line rest) as [line after] eqn:Hs. apply split_line_app in Hs.
  assert (Hafter: suffix_of (match after with _ :: a => a | [] => [] end) rest).
  { subst rest. destruct after as [|c a].
    - exists line. now rewrite app_nil_r.
    - exists (line ++ [c]). now rewrite <- app_assoc. }
  destruct (ppline_scan line) as [[pl|] pf|msg off]; [destruct (forallb is_ascii_digit pl)|..];
    injection H as <- _ <-; (split; [auto using suffix_refl|repeat constructor]).
Qed.

Lemma handle_pppragma_spec : forall st rest items st' rest',
  handle_pppragma st rest = (items, st', rest') -> suffix_of rest' rest /\ Forall directive_item items.
Proof.
  intros st rest items st' rest' H. unfold handle_pppragma in H.
  destruct (skip_ws (l_pos st) rest) as [p1 r1] eqn:Hw. apply skip_ws_suffix in Hw.
  destruct r1 as [|c r1tl]; [injection H as <- _ <-; split; [exact Hw|constructor]|].
  destruct (negb (starts_with s_pragma (c :: r1tl))).
  - injection H as <- _ <-. split; [eapply suffix_trans; [apply suffix_cons|exact Hw]|repeat constructor].
  - destruct (skip_ws (p1 + 6) (skipn 6 (c :: r1tl))) as [start r2] eqn:Hw2. apply skip_ws_suffix in Hw2.
    destruct (split_line r2) as [body after] eqn:Hs. apply split_line_app in Hs. subst r2.
    assert (Hr2: suffix_of (body ++ after) rest).
    { eapply suffix_trans; [exact Hw2|]. eapply suffix_trans; [apply suffix_skipn|exact Hw]. }
    split.
    + eapply suffix_trans; [|exact Hr2].
      destruct after as [|c2 a]; injection H as _ _ <-; [exists body; reflexivity|exists (body ++ [c2]); now rewrite <- app_assoc].
    + destruct body, after; injection H as <- _ _; repeat apply Forall_cons; try apply Forall_nil; cbn; auto.
Qed.

(* The token() loop, one iteration, case by case. *)
Inductive lex_iter_spec (n0: nat) (st: lexst) (rest: str) : list raw_item * lexst * str -> Prop :=
| LI_nil : rest = [] -> lex_iter_spec n0 st rest ([], st, [])
| LI_blank c rest' : rest = c :: rest' -> is_blank c = true -> lex_iter_spec n0 st rest ([], lex_advance st [c], rest')
| LI_newline rest' : rest = 10 :: rest' ->
    lex_iter_spec n0 st rest ([], mkLex (l_pos st + 1) (l_pos st + 1) (l_lineno st + 1) (l_file st), rest')
| LI_directive q items st' rest' : rest = 35 :: q ++ rest' -> Forall directive_item items ->
    lex_iter_spec n0 st rest (items, st', rest')
| LI_token c rest' : rest = c :: rest' -> lex_iter_spec n0 st rest (match_token n0 st rest).

Lemma lex_iter_cases : forall n0 st rest, lex_iter_spec n0 st rest (lex_iter n0 st rest).
Proof.
  intros n0 st rest. unfold lex_iter. destruct rest as [|c rest0]; [apply LI_nil; reflexivity|].
  destruct (is_blank c) eqn:Hb; [apply (LI_blank _ _ _ c rest0); auto|].
  destruct (N.eqb_spec c 10) as [->|_]; [apply (LI_newline _ _ _ rest0); reflexivity|].
  destruct (N.eqb_spec c 35) as [->|_]; [cbv zeta|apply (LI_token _ _ _ c rest0); reflexivity].
  destruct (match_re n0 re_line_pattern rest0) as [?|]; [|destruct (match_re n0 re_pragma_pattern rest0) as [?|]].
  - destruct (handle_ppline _ rest0) as [[items st'] rest'] eqn:H. apply handle_ppline_spec in H.
    destruct H as [[q ->] Hd]. apply (LI_directive _ _ _ q); auto.
  - destruct (handle_pppragma _ rest0) as [[items st'] rest'] eqn:H. apply handle_pppragma_spec in H.
    destruct H as [[q ->] Hd]. apply (LI_directive _ _ _ q); auto.
  - apply (LI_directive _ _ _ []); [reflexivity|constructor; [cbn; auto|constructor]].
Qed.

Lemma lex_iter_Forall : forall Q: raw_item -> Prop, (forall i, directive_item i -> Q i) ->
  (forall n0 st rest, Forall Q (fst (fst (match_token n0 st rest)))) ->
  forall n0 st rest, Forall Q (fst (fst (lex_iter n0 st rest))).
Proof.
  intros Q Hd Hm n0 st rest. destruct (lex_iter_cases n0 st rest); cbn [fst]; auto. eapply Forall_impl; eauto.
Qed.

Lemma raw_lex_loop_ind : forall R: nat -> lexst -> str -> list raw_item * lexst * bool -> Prop,
  (forall fuel st, R fuel st [] ([], st, true)) ->
  (forall st rest, R 0%nat st rest ([], st, false)) ->
  (forall f st rest items st' rest', rest <> [] -> lex_iter (S f) st rest = (items, st', rest') ->
     if has_crash items then R (S f) st rest (items, st', true)
     else forall more stf b, R f st' rest' (more, stf, b) -> R (S f) st rest (items ++ more, stf, b)) ->
  forall fuel st rest, R fuel st rest (raw_lex fuel st rest).
Proof.
  intros R Hnil H0 Hstep. induction fuel as [|f IH]; intros st [|c r]; try apply Hnil; [apply H0|]. cbn [raw_lex].
  destruct (lex_iter (S f) st (c :: r)) as [[items st'] rest'] eqn:Hi.
  specialize (Hstep f st (c :: r) items st' rest' ltac:(discriminate) Hi). destruct (has_crash items); [exact Hstep|].
  specialize (IH st' rest'). destruct (raw_lex f st' rest') as [[more stf] b]. exact (Hstep _ _ _ IH).
Qed.

(* to show Q of every item of a lexing: show it of what a directive line leaves and of what _match_token emits *)
Lemma raw_lex_Forall : forall Q: raw_item -> Prop, (forall i, directive_item i -> Q i) ->
  (forall n0 st rest, Forall Q (fst (fst (match_token n0 st rest)))) ->
  forall fuel st rest, Forall Q (fst (fst (raw_lex fuel st rest))).
Proof.
  intros Q Hd Hm. apply (raw_lex_loop_ind (fun _ _ _ res => Forall Q (fst (fst res)))); try constructor.
  intros f st rest items st' rest' _ E. pose proof (lex_iter_Forall Q Hd Hm (S f) st rest) as Hi. rewrite E in Hi.
  destruct (has_crash items); [exact Hi|]. intros more stf b IH. apply Forall_app. split; assumption.
Qed.

Theorem raw_lex_regex_tok : forall P, regex_only P = true ->
  forall fuel st rest, Forall (tok_of_rule P) (fst (fst (raw_lex fuel st rest))).
Proof.
  intros P T. apply raw_lex_Forall; [|exact (match_token_regex_tok P T)].
  intros [k v l c f| |] Hd; [|exact I..]. intros Hk. unfold regex_only in T. apply andb_true_iff in T.
  apply (forallb_In _ _ _ (proj2 T)) in Hd. rewrite Hk in Hd. discriminate.
Qed.

(* what a computed check [ok] on the rules of such kinds guarantees of their words holds of the text of every
   such token *)
Theorem raw_lex_rule_tokens : forall (P: kind -> bool) (ok: re -> bool) (R: str -> Prop), regex_only P = true ->
  forallb (fun r => match ract r with A_TOKEN k => if P k then ok (rre r) else true | _ => true end) regex_rules = true ->
  (forall r w, ok r = true -> in_re r w -> R w) ->
  forall fuel st rest, Forall (fun i => match i with RTok k v _ _ _ => P k = true -> R v | _ => True end)
                              (fst (fst (raw_lex fuel st rest))).
Proof.
  intros P ok R T Tr Hok fuel st rest. eapply Forall_impl; [|exact (raw_lex_regex_tok P T fuel st rest)].
  intros [k v l c f| |] Hi; [|exact I..]. intros Hk. destruct (Hi Hk) as (r & Hr & Ha & Hl).
  pose proof (forallb_In _ _ _ Tr Hr) as Tk. cbv beta in Tk. rewrite Ha, Hk in Tk. exact (Hok _ _ Tk Hl).
Qed.

Definition tok_value_is (items: list raw_item) (p: str) : Prop :=
  forall k v line col f, In (RTok k v line col f) items -> v = p.

Definition silent_ok (p: str) : Prop :=
  p = [32] \/ p = [9] \/ p = [10] \/ exists q, p = 35 :: q.

(* one segment of the input with the items the lexer produced for it (32, 9, 10: blank, tab, newline; 35: '#',
   which opens a directive line) *)
Definition seg_ok (seg: str * list raw_item) : Prop :=
  let (p, items) := seg in
  p <> [] /\
  (items = [] -> silent_ok p) /\
  ((forall q, p <> 35 :: q) -> tok_value_is items p).

Lemma seg_ok_one : forall p i, p <> [] -> (forall k v l c f, i = RTok k v l c f -> v = p) -> seg_ok (p, [i]).
Proof.
  intros p i Hp Hv. split; [exact Hp|]. split; [discriminate|]. intros _ k v l c f [E|[]]. exact (Hv _ _ _ _ _ E).
Qed.

Lemma match_token_seg : forall n0 st rest items st' rest',
  match_token n0 st rest = (items, st', rest') -> rest <> [] -> has_crash items = false ->
  exists p, rest = p ++ rest' /\ seg_ok (p, items).
Proof.
  intros n0 st rest items st' rest' Em Hne Hc. revert Em Hc.
  (* every case but the crash emits one item for the prefix it consumed *)
  destruct (match_token_cases n0 st rest) as [r k p s' E Hp _ _ _|k p s' E Hp _|r msg mm p s' E Hp _ _ _ _|c s' E _|r _ _ _|E];
    intros Em Hc; injection Em as <- <- <-; [exists p..|exists [c]|discriminate Hc|congruence];
    (split; [exact E|apply seg_ok_one; [assumption || discriminate|intros k0 v l c0 f Ei; inversion Ei; reflexivity]]).
Qed.

Lemma lex_iter_seg : forall n0 st rest items st' rest',
  rest <> [] -> lex_iter n0 st rest = (items, st', rest') -> has_crash items = false ->
  exists p, rest = p ++ rest' /\ seg_ok (p, items).
Proof.
  intros n0 st rest items st' rest' Hne H Hc. revert H Hc.
  destruct (lex_iter_cases n0 st rest) as [E|c s E Hb|s E|q its st1 s E _|c s E]; intros H Hc; [congruence|injection H as <- _ <-..|].
  - exists [c]. split; [exact E|]. split; [discriminate|]. split; [|intros _ k v l c0 f []].
    intros _. apply orb_true_iff in Hb. destruct Hb as [Hb|Hb]; apply N.eqb_eq in Hb; subst c; unfold silent_ok; auto.
  - exists [10]. split; [exact E|]. split; [discriminate|]. split; [|intros _ k v l c0 f []]. unfold silent_ok. auto.
  - exists (35 :: q). split; [exact E|]. split; [discriminate|]. split; [unfold silent_ok; eauto 6|].
    intros Hq. destruct (Hq q eq_refl).
  - apply (match_token_seg _ _ _ _ _ _ H Hne Hc).
Qed.

Definition consumed (rest rest': str) : Prop := exists p, p <> [] /\ rest = p ++ rest'.

(* C09 progress: every iteration of the token() loop removes a non-empty
   prefix of the remaining input (unless the lexer itself crashed). *)
Theorem lex_iter_progress : forall n0 st rest items st' rest',
  rest <> [] -> lex_iter n0 st rest = (items, st', rest') -> has_crash items = false ->
  consumed rest rest'.
Proof.
  intros n0 st rest items st' rest' Hne H Hc. destruct (lex_iter_seg _ _ _ _ _ _ Hne H Hc) as (p & Hr & Hp & _).
  exists p. split; assumption.
Qed.

(* C09 termination: lexing a text of n characters finishes within n+1 iterations. *)
Theorem lex_terminates_gen : forall fuel st rest,
  (length rest < fuel)%nat -> snd (raw_lex fuel st rest) = true.
Proof.
  apply (raw_lex_loop_ind (fun fuel _ rest res => (length rest < fuel)%nat -> snd res = true)); [reflexivity|intros; lia|].
  intros f st rest items st' rest' Hne Hi. destruct (has_crash items) eqn:Hc; [reflexivity|]. intros more stf b IH Hlt. apply IH.
  destruct (lex_iter_progress _ _ _ _ _ _ Hne Hi Hc) as ([|x p] & Hp & ->); [congruence|].
  rewrite app_length in Hlt. cbn [length] in Hlt. lia.
Qed.

Theorem lex_terminates : forall text file,
  snd (raw_lex (S (length text)) (init_lexst file) text) = true.
Proof. intros. apply lex_terminates_gen. lia. Qed.

Lemma has_crash_app : forall a b, has_crash (a ++ b) = false -> has_crash b = false.
Proof. intros a b H. unfold has_crash in *. rewrite existsb_app in H. apply orb_false_iff in H. tauto. Qed.

(* C09 lossless: the input is the concatenation, in order, of the segments the
   lexer consumed, the item list is the concatenation of what each segment
   produced, and every segment is accounted for (seg_ok). *)
Theorem lex_lossless_gen : forall fuel st rest items stf,
  raw_lex fuel st rest = (items, stf, true) -> has_crash items = false ->
  exists segs, concat (map fst segs) = rest /\ concat (map snd segs) = items /\ Forall seg_ok segs.
Proof.
  apply (raw_lex_loop_ind (fun _ _ rest res => forall items stf, res = (items, stf, true) -> has_crash items = false ->
           exists segs, concat (map fst segs) = rest /\ concat (map snd segs) = items /\ Forall seg_ok segs)).
  - intros _ st items stf E _. injection E as <- _. exists []. repeat split; constructor.
  - discriminate.
  - intros f st rest its st' rest' Hne Hi. destruct (has_crash its) eqn:Hc1; [intros items stf E Hc; injection E as <- _; congruence|].
    intros more stf b IH items stf' E Hc. injection E as <- _ ->.
    destruct (IH _ _ eq_refl (has_crash_app _ _ Hc)) as (segs & Hs1 & Hs2 & Hs3).
    destruct (lex_iter_seg _ _ _ _ _ _ Hne Hi Hc1) as (p & Hr & Hok).
    exists ((p, its) :: segs). cbn [map fst snd concat]. rewrite Hs1, Hs2. repeat split; auto.
Qed.

Theorem lex_lossless : forall text file items stf,
  raw_lex (S (length text)) (init_lexst file) text = (items, stf, true) -> has_crash items = false ->
  exists segs, concat (map fst segs) = text /\ concat (map snd segs) = items /\ Forall seg_ok segs.
Proof. intros. eapply lex_lossless_gen; eauto. Qed.
