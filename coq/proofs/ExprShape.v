(* C02 / C17 on the whole-parser model: the upper rungs of the expression ladder.
   ?: and assignment associate to the RIGHT (their last operand is parsed by the production itself,
   recursively), a full comma expression is allowed between ? and :, a comma expression is one flat
   list, and a parenthesised expression is returned unchanged (parentheses only group).
   One-step unfoldings proved against the model's text, for every token stream, state and fuel. *)
From Coq Require Import List NArith Bool Arith Lia.
Import ListNotations.
From PV Require Import Regex Base LexTables ParserTables AstDefs AstSpec AstImpl PyRepr NodeModel ParserBase ParserDecl ParserMain PostLib.
From PV Require TableProofs.
Open Scope nat_scope.

Section ES.
Variable P : Type.
Notation pstate := (pstate P).
Notation node := (node P).

Lemma cond_eq : forall f,
  p_conditional_expression P (S f) =
  bind P (p_cast_expression P f) (fun lhs0 =>
  bind P (p_binary_climb P f 0 lhs0) (fun e =>
  bind P (accept P K_CONDOP) (fun q =>
  match q with
  | None => ret P e
  | Some _ =>
    bind P (p_expression P f) (fun iftrue =>
    bind P (expect P K_COLON) (fun _ =>
    bind P (p_conditional_expression P f) (fun iffalse =>
    bind P (coordA P e) (fun ec =>
    ret P (mkN P C_TernaryOp [e; iftrue; iffalse] ec)))))
  end))).
Proof. reflexivity. Qed.

(* conditional-expression: binary-expression [ ? expression : conditional-expression ] *)
Theorem conditional_right_assoc : forall f (s s': pstate) r,
  p_conditional_expression P (S f) s = Ok (r, s') ->
  exists lhs0 s1 e s2 q s3,
    p_cast_expression P f s = Ok (lhs0, s1) /\ p_binary_climb P f 0 lhs0 s1 = Ok (e, s2) /\
    accept P K_CONDOP s2 = Ok (q, s3) /\
    match q with
    | None => r = e /\ s' = s3
    | Some _ => exists iftrue s4 c s5 iffalse ec,
        p_expression P f s3 = Ok (iftrue, s4) /\            (* a full comma expression between ? and : *)
        expect P K_COLON s4 = Ok (c, s5) /\
        p_conditional_expression P f s5 = Ok (iffalse, s') /\   (* the third operand is again a conditional-expression *)
        get_coord P e = Some ec /\ r = mkN P C_TernaryOp [e; iftrue; iffalse] ec
    end.
Proof.
  intros f s s' r H. rewrite cond_eq in H.
  apply bind_Ok in H as (lhs0 & s1 & E1 & H). apply bind_Ok in H as (e & s2 & E2 & H). apply bind_Ok in H as (q & s3 & E3 & H).
  exists lhs0, s1, e, s2, q, s3. repeat (split; [assumption|]). destruct q as [qt|].
  - apply bind_Ok in H as (iftrue & s4 & E4 & H). apply bind_Ok in H as (c & s5 & E5 & H). apply bind_Ok in H as (iffalse & s6 & E6 & H).
    apply bind_Ok in H as (ec & s7 & Ec & H). apply coordA_Ok in Ec as [Ec ->]. apply ret_Ok in H as [-> ->].
    exists iftrue, s4, c, s5, iffalse, ec. repeat (split; [assumption|]). reflexivity.
  - apply ret_Ok in H. exact H.
Qed.

Lemma expr_eq : forall f,
  p_expression P (S f) =
  bind P (p_assignment_expression P f) (fun e =>
  bind P (accept P K_COMMA) (fun c =>
  match c with
  | None => ret P e
  | Some _ =>
    bind P (p_assignment_expression P f) (fun e2 =>
    bind P (p_comma_exprs P f) (fun rest =>
    bind P (coordA P e) (fun ec =>
    ret P (mkN P C_ExprList [VList (e :: e2 :: rest)] ec))))
  end)).
Proof. reflexivity. Qed.

Lemma comma_eq : forall f,
  p_comma_exprs P (S f) =
  bind P (accept P K_COMMA) (fun c =>
  match c with
  | None => ret P []
  | Some _ => bind P (p_assignment_expression P f) (fun e => bind P (p_comma_exprs P f) (fun r => ret P (e :: r)))
  end).
Proof. reflexivity. Qed.

(* the operands after the first comma: one assignment-expression per comma, in order, nothing else *)
Inductive CommaRun : pstate -> list node -> pstate -> Prop :=
| CR_end : forall s s', accept P K_COMMA s = Ok (None, s') -> CommaRun s [] s'
| CR_more : forall s c s1 f e s2 l s', accept P K_COMMA s = Ok (Some c, s1) ->
    p_assignment_expression P f s1 = Ok (e, s2) -> CommaRun s2 l s' -> CommaRun s (e :: l) s'.

Lemma comma_exprs_run : forall f (s s': pstate) l, p_comma_exprs P f s = Ok (l, s') -> CommaRun s l s'.
Proof.
  induction f as [|f IH]; intros s s' l H; [discriminate|]. rewrite comma_eq in H.
  apply bind_Ok in H as (c & s1 & E & H). destruct c as [ct|].
  - apply bind_Ok in H as (e & s2 & E2 & H). apply bind_Ok in H as (r & s3 & E3 & H). apply ret_Ok in H as [-> ->].
    eapply CR_more; eauto.
  - apply ret_Ok in H as [-> ->]. apply CR_end. exact E.
Qed.

Theorem comma_expression_flat : forall f (s s': pstate) r,
  p_expression P (S f) s = Ok (r, s') ->
  exists e s1 c s2, p_assignment_expression P f s = Ok (e, s1) /\ accept P K_COMMA s1 = Ok (c, s2) /\
    match c with
    | None => r = e /\ s' = s2
    | Some _ => exists e2 s3 rest ec, p_assignment_expression P f s2 = Ok (e2, s3) /\ CommaRun s3 rest s' /\
                                     get_coord P e = Some ec /\ r = mkN P C_ExprList [VList (e :: e2 :: rest)] ec
    end.
Proof.
  intros f s s' r H. rewrite expr_eq in H.
  apply bind_Ok in H as (e & s1 & E1 & H). apply bind_Ok in H as (c & s2 & E2 & H).
  exists e, s1, c, s2. repeat (split; [assumption|]). destruct c as [ct|].
  - apply bind_Ok in H as (e2 & s3 & E3 & H). apply bind_Ok in H as (rest & s4 & E4 & H).
    apply bind_Ok in H as (ec & s5 & Ec & H). apply coordA_Ok in Ec as [Ec ->]. apply ret_Ok in H as [-> ->].
    apply comma_exprs_run in E4. exists e2, s3, rest, ec. repeat (split; [assumption|]). reflexivity.
  - apply ret_Ok in H. exact H.
Qed.

Lemma assign_eq : forall f,
  p_assignment_expression P (S f) =
  bind P (peek_kind P) (fun k1 =>
  bind P (if okind_is k1 K_LPAREN then bind P (peek_kind_k P 2) (fun k2 => ret P (okind_is k2 K_LBRACE)) else ret P false) (fun stmt_expr =>
  if stmt_expr then
    bind P (advance P) (fun _ => bind P (p_compound_statement P f) (fun comp => bind P (expect P K_RPAREN) (fun _ => ret P comp)))
  else
    bind P (p_conditional_expression P f) (fun e =>
    bind P (peek P) (fun t =>
    match t with
    | Some t' =>
      if kind_in (tk t') tbl_ASSIGNMENT_OPS then
        bind P (advance P) (fun op =>
        bind P (p_assignment_expression P f) (fun rhs =>
        bind P (coordA P e) (fun ec =>
        ret P (mkN P C_Assignment [VStr (tv op); e; rhs] ec))))
      else ret P e
    | None => ret P e
    end)))).
Proof. reflexivity. Qed.

Theorem assignment_right_assoc : forall f (s s': pstate) r,
  p_assignment_expression P (S f) s = Ok (r, s') ->
  (exists e s1 t s2, p_conditional_expression P f s1 = Ok (e, s2) /\ peek P s2 = Ok (t, s') /\ r = e /\
                     match t with Some t' => kind_in (tk t') tbl_ASSIGNMENT_OPS = false | None => True end)
  \/ (exists e s1 s2 t' s3 op s4 rhs ec,
        p_conditional_expression P f s1 = Ok (e, s2) /\ peek P s2 = Ok (Some t', s3) /\
        kind_in (tk t') tbl_ASSIGNMENT_OPS = true /\ advance P s3 = Ok (op, s4) /\
        p_assignment_expression P f s4 = Ok (rhs, s') /\ get_coord P e = Some ec /\
        r = mkN P C_Assignment [VStr (tv op); e; rhs] ec)
  \/ (exists comp s1 s2 x, p_compound_statement P f s1 = Ok (comp, s2) /\ expect P K_RPAREN s2 = Ok (x, s') /\ r = comp).
Proof.
  intros f s s' r H. rewrite assign_eq in H.
  apply bind_Ok in H as (k1 & sa & _ & H). apply bind_Ok in H as (se & sb & _ & H). destruct se.
  - right. right. apply bind_Ok in H as (x0 & s1 & _ & H). apply bind_Ok in H as (comp & s2 & E & H).
    apply bind_Ok in H as (x & s3 & E2 & H). apply ret_Ok in H as [-> ->].
    exists comp, s1, s2, x. repeat (split; [assumption|]). reflexivity.
  - apply bind_Ok in H as (e & s2 & E & H). apply bind_Ok in H as (t & s3 & Ep & H).
    destruct t as [t'|]; [destruct (kind_in (tk t') tbl_ASSIGNMENT_OPS) eqn:Ek|].
    + right. left. apply bind_Ok in H as (op & s4 & Ea & H). apply bind_Ok in H as (rhs & s5 & Er & H).
      apply bind_Ok in H as (ec & s6 & Ec & H). apply coordA_Ok in Ec as [Ec ->]. apply ret_Ok in H as [-> ->].
      exists e, sb, s2, t', s3, op, s4, rhs, ec. repeat (split; [assumption|]). reflexivity.
    + left. apply ret_Ok in H as [-> ->]. exists e, sb, (Some t'), s2. repeat (split; [assumption|]). split; [reflexivity|exact Ek].
    + left. apply ret_Ok in H as [-> ->]. exists e, sb, None, s2. repeat (split; [assumption|]). split; [reflexivity|exact I].
Qed.

Lemma primary_eq : forall f,
  p_primary_expression P (S f) =
  bind P (peek_kind P) (fun k =>
    if okind_is k K_ID then p_identifier P
    else if okind_in k tbl_INT_CONST || okind_in k tbl_FLOAT_CONST || okind_in k tbl_CHAR_CONST then p_constant P
    else if okind_in k tbl_STRING_LITERAL then p_unified_string_literal P f
    else if okind_in k tbl_WSTR_LITERAL then p_unified_wstring_literal P f
    else if okind_is k K_LPAREN then
      bind P (advance P) (fun _ => bind P (p_expression P f) (fun e => bind P (expect P K_RPAREN) (fun _ => ret P e)))
    else if okind_is k K_OFFSETOF then
      bind P (advance P) (fun ot =>
      bind P (expect P K_LPAREN) (fun _ =>
      bind P (p_type_name P f) (fun typ =>
      bind P (expect P K_COMMA) (fun _ =>
      bind P (p_offsetof_member_designator P f) (fun des =>
      bind P (expect P K_RPAREN) (fun _ =>
      bind P (tcoord P ot) (fun c =>
      ret P (mkN P C_FuncCall [mkN P C_ID [VStr (tv ot)] c; mkN P C_ExprList [VList [typ; des]] c] c))))))))
    else bind P (cur_file P) (fun fl => fail P (L_file P fl) (s2l "Invalid expression"))).
Proof. reflexivity. Qed.

Theorem parentheses_only_group : forall f (s s1 s': pstate) k r,
  p_primary_expression P (S f) s = Ok (r, s') ->
  peek_kind P s = Ok (k, s1) -> okind_is k K_LPAREN = true ->
  exists x s2 s3 y, advance P s1 = Ok (x, s2) /\ p_expression P f s2 = Ok (r, s3) /\ expect P K_RPAREN s3 = Ok (y, s').
Proof.
  intros f s s1 s' k r H Hk Hl. rewrite primary_eq in H. apply bind_Ok in H as (k0 & s0 & Hk0 & H).
  rewrite Hk in Hk0. injection Hk0 as <- <-. destruct k as [k'|]; [|discriminate].
  apply TableProofs.kind_eqb_eq in Hl as ->. cbn in H.
  apply bind_Ok in H as (x & s2 & Ea & H). apply bind_Ok in H as (e & s3 & Ee & H). apply bind_Ok in H as (y & s4 & Ex & H).
  apply ret_Ok in H as [-> ->]. exists x, s2, s3, y. repeat (split; [assumption|]). exact Ex.
Qed.
End ES.
