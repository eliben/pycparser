(* C07 on the whole-parser model, token level: parse . generate = id for every tree of binary operators
   over identifiers, of any size and shape, both settings of reduce_parentheses.

   kv rp t is the token sequence (kind, spelling) of the text CGenerator prints for t (GenBinop.print;
   [print_is_text]: the text is these spellings with a blank on each side of an operator).  Whenever
   the parser model (ParserMain.p_expression: the complete ladder expression -> assignment ->
   conditional -> binary climb -> cast -> unary -> postfix -> primary, with its speculative
   "( type-name )" attempts and mark / reset) finds those tokens next in its input, followed by a
   token that cannot continue an expression, it returns - for all sufficiently large fuel - exactly
   the tree the text was printed from (coordinates aside), having consumed exactly those tokens.
   What does not depend on the operands being identifiers - the way from the cast-expression down to the
   primary-expression, the simulation of the precedence climb, the flattened sequence - is stated for
   arbitrary operands (Sections Steps, Sim, Flat) and used again by RoundTripGen.v and RoundTripX.v. *)
From Coq Require Import String.
From Coq Require Import List NArith Bool Arith Lia.
Import ListNotations.
From PV Require Import Regex Base AstDefs AstSpec AstImpl GenTables NodeModel Generator ClimbProofs ClimbComplete GenParen GenBinop.
From PV Require Import LexTables ParserTables PyRepr ParserBase ParserDecl ParserMain LexerProofs TableProofs.
From PV Require Import BinaryRefine ExprShape UnaryShape CoordProofs StreamLib.
Open Scope nat_scope.

(* coordinates erased *)
Fixpoint strip {A} (v: value A) : value unit :=
  match v with
  | VNone => VNone
  | VStr x => VStr x
  | VList l => VList (map strip l)
  | VNode c fs _ => VNode c (map strip fs) None
  end.

Lemma strip_node_inv : forall A (v: value A) c fs co, strip v = VNode c fs co -> exists fs' co', v = VNode c fs' co'.
Proof. intros A v c fs co H. destruct v; try discriminate. cbn in H. injection H as <- _ _. eexists. eexists. reflexivity. Qed.

Definition opk (o: str) : kind := match punct_kind_l o with Some k => k | None => K_ID end.

(* a token that cannot continue a postfix-expression *)
Definition quiet (k: kind) : bool :=
  negb (kind_in k [K_LBRACKET; K_LPAREN; K_PERIOD; K_ARROW; K_PLUSPLUS; K_MINUSMINUS; K_LBRACE; K_RBRACE]).
(* a token that cannot continue a binary expression *)
Definition bstop (k: kind) : bool := quiet k && match prec_of k with None => true | Some _ => false end.
(* a token that cannot continue an expression *)
Definition estop (k: kind) : bool :=
  bstop k && negb (kind_eqb k K_CONDOP) && negb (kind_in k tbl_ASSIGNMENT_OPS) && negb (kind_eqb k K_COMMA).

Definition op_entry_ok (e: str * nat) : bool :=
  match punct_kind_l (fst e) with
  | Some k => match prec_of k with Some p => Nat.eqb p (snd e) | None => false end && quiet k
  | None => false
  end.
Lemma op_entries_ok : forallb op_entry_ok gen_precedence_map = true.
Proof. vm_compute. reflexivity. Qed.

Lemma opk_facts : forall o, prec_lookup_s o <> None -> prec_of (opk o) = Some (gprec o) /\ quiet (opk o) = true.
Proof.
  intros o H. unfold gprec. destruct (prec_lookup_s o) as [p|] eqn:E; [|congruence].
  unfold prec_lookup_s in E. apply assoc_str_In in E.
  pose proof (proj1 (forallb_forall _ _) op_entries_ok _ E) as Hk. unfold op_entry_ok in Hk. cbn [fst snd] in Hk.
  unfold opk. destruct (punct_kind_l o) as [k|]; [|discriminate].
  destruct (prec_of k) as [q|]; [|discriminate]. apply andb_true_iff in Hk. destruct Hk as [Hq Hquiet].
  apply Nat.eqb_eq in Hq. subst q. split; [reflexivity|exact Hquiet].
Qed.

Definition unary_pass (k: kind) : bool :=
  negb (okind_is (Some k) K_PLUSPLUS || okind_is (Some k) K_MINUSMINUS) &&
  negb (okind_in (Some k) [K_AND; K_TIMES; K_PLUS; K_MINUS; K_NOT; K_LNOT]) &&
  negb (okind_is (Some k) K_SIZEOF) && negb (okind_is (Some k) K_uALIGNOF).

Lemma quiet_facts : forall k, quiet k = true ->
  kind_eqb k K_LBRACKET = false /\ kind_eqb k K_LPAREN = false /\
  (okind_is (Some k) K_PERIOD || okind_is (Some k) K_ARROW) = false /\
  (okind_is (Some k) K_PLUSPLUS || okind_is (Some k) K_MINUSMINUS) = false.
Proof. intros k H. destruct k; vm_compute in H; try discriminate H; vm_compute; repeat split. Qed.

Lemma bstop_facts : forall k, bstop k = true -> quiet k = true /\ prec_of k = None.
Proof.
  intros k H. unfold bstop in H. apply andb_true_iff in H. destruct H as [H1 H2]. split; [exact H1|].
  destruct (prec_of k); [discriminate|reflexivity].
Qed.

Lemma estop_facts : forall k, estop k = true ->
  bstop k = true /\ kind_eqb k K_CONDOP = false /\ kind_in k tbl_ASSIGNMENT_OPS = false /\ kind_eqb k K_COMMA = false.
Proof.
  intros k H. unfold estop in H. do 3 (apply andb_true_iff in H; destruct H as [H ?]).
  repeat match goal with X: negb _ = true |- _ => apply negb_true_iff in X end. repeat split; assumption.
Qed.

Definition parkv (x: list (kind * str)) : list (kind * str) := (K_LPAREN, s2l "(") :: x ++ [(K_RPAREN, s2l ")")].

Section Steps.
Variable P : Type.
Notation pstate := (ParserBase.pstate P).
Notation tok := (ParserBase.tok P).
Notation Up := (Up P).

Definition Spell (l: list tok) (kvs: list (kind * str)) : Prop := map (fun t => (tk t, tv t)) l = kvs.

Lemma Spell_app_inv : forall l x y, Spell l (x ++ y) -> exists l1 l2, l = l1 ++ l2 /\ Spell l1 x /\ Spell l2 y.
Proof. intros l x y H. unfold Spell in *. apply map_eq_app in H. exact H. Qed.
Lemma Spell_cons_inv : forall l k v y, Spell l ((k, v) :: y) -> exists t l2, l = t :: l2 /\ tk t = k /\ tv t = v /\ Spell l2 y.
Proof.
  intros l k v y H. unfold Spell in *. destruct l as [|t l2]; [discriminate|]. cbn [map] in H. injection H as H1 H2 H3.
  exists t, l2. repeat split; assumption.
Qed.
Lemma Spell_nil_inv : forall l, Spell l [] -> l = [].
Proof. intros l H. unfold Spell in H. destruct l; [reflexivity|discriminate]. Qed.


Lemma coordA_node : forall (N: ParserBase.node P) c fs co (s: pstate), strip N = VNode c fs co -> exists ec, coordA P N s = Ok (ec, s).
Proof. intros N c fs co s H. destruct (strip_node_inv _ _ _ _ _ H) as [fs' [co' ->]]. exists co'. reflexivity. Qed.

Lemma tptn_eq : forall f, try_paren_type_name P (S f) =
  bind P (mark P) (fun mk => bind P (accept P K_LPAREN) (fun lp =>
  match lp with
  | None => ret P None
  | Some lpt =>
    bind P (starts_declaration P) (fun sd =>
    if negb sd then bind P (reset P mk) (fun _ => ret P None)
    else bind P (p_type_name P f) (fun typ => bind P (accept P K_RPAREN) (fun rpn =>
         match rpn with
         | None => bind P (reset P mk) (fun _ => ret P None)
         | Some _ => ret P (Some (typ, mk, lpt))
         end)))
  end)).
Proof. reflexivity. Qed.

(* the lemmas named _c also say what the run cost: the counters, [Same] or [SC] *)
Lemma tptn_no_paren_c : forall (s: pstate) t l, Up s (t :: l) -> kind_eqb (tk t) K_LPAREN = false ->
  exists s1, (forall f, try_paren_type_name P (S f) s = Ok (None, s1)) /\ Up s1 (t :: l) /\ Same P s s1.
Proof.
  intros s t l HU Hk. destruct (accept_miss P s t l K_LPAREN HU Hk) as [s1 [Ha [HU1 HS]]].
  exists s1. split; [|split; [exact HU1|exact HS]]. intros f. rewrite tptn_eq. unfold bind at 1. rewrite mark_eq. unfold bind at 1. rewrite Ha. reflexivity.
Qed.

Lemma tptn_not_type_c : forall (s: pstate) lp x l, Up s (lp :: x :: l) -> kind_eqb (tk lp) K_LPAREN = true ->
  kind_in (tk x) tbl_DECL_START = false ->
  exists s1, (forall f, try_paren_type_name P (S f) s = Ok (None, s1)) /\ Up s1 (lp :: x :: l) /\
             idx P s1 = idx P s /\ ticks P s1 = (ticks P s + 1)%N /\ SC P s s1.
Proof.
  intros s lp x l HU Hk Hx. destruct (accept_hit P s lp (x :: l) K_LPAREN HU Hk) as [s2 [Ha [HU2 HA]]].
  destruct (peek_kind_up P s2 x l HU2) as [s3 [Hp [HU3 HS]]].
  destruct (Adv_Same P _ _ _ _ HA HS) as [Hb [Hi [Ht Hsc]]].
  destruct (reset_one P s3 lp (before P s) (idx P s) (x :: l) Hb Hi HU3) as [s4 [Hr [HU4 [_ [Hi4 [Ht4 Hsc4]]]]]].
  exists s4. split; [|split; [exact HU4|split; [exact Hi4|split; [congruence|exact (SC_trans P _ _ _ Hsc Hsc4)]]]]. intros f. rewrite tptn_eq. unfold bind at 1. rewrite mark_eq. unfold bind at 1. rewrite Ha.
  unfold bind at 1. unfold starts_declaration. unfold bind at 1. rewrite Hp. unfold ret at 1. cbn [okind_in]. rewrite Hx. cbn [negb].
  unfold bind at 1. rewrite Hr. reflexivity.
Qed.

Lemma tptn_not_type_cost : forall (s: pstate) lp x l, Up s (lp :: x :: l) -> kind_eqb (tk lp) K_LPAREN = true ->
  kind_in (tk x) tbl_DECL_START = false ->
  exists s1, (forall f, try_paren_type_name P (S f) s = Ok (None, s1)) /\ Up s1 (lp :: x :: l) /\
             idx P s1 = idx P s /\ ticks P s1 = (ticks P s + 1)%N.
Proof.
  intros s lp x l HU Hk Hx. destruct (tptn_not_type_c s lp x l HU Hk Hx) as [s1 [H1 [H2 [H3 [H4 _]]]]].
  exists s1. split; [exact H1|split; [exact H2|split; [exact H3|exact H4]]].
Qed.

Lemma suffixes_stop_c : forall (s: pstate) n l, Up s (n :: l) -> quiet (tk n) = true ->
  exists s1, (forall f e, p_postfix_suffixes P (S f) e s = Ok (e, s1)) /\ Up s1 (n :: l) /\ Same P s s1.
Proof.
  intros s n l HU Hq. destruct (quiet_facts _ Hq) as [H1 [H2 [H3 H4]]].
  destruct (accept_miss P s n l K_LBRACKET HU H1) as [s1 [Ha1 [HU1 HS1]]].
  destruct (accept_miss P s1 n l K_LPAREN HU1 H2) as [s2 [Ha2 [HU2 HS2]]].
  destruct (peek_kind_up P s2 n l HU2) as [s3 [Hp [HU3 HS3]]].
  exists s3. split; [|split; [exact HU3|exact (Same_trans P _ _ _ (Same_trans P _ _ _ HS1 HS2) HS3)]].
  intros f e. rewrite (UnaryShape.suffix_eq P). unfold bind at 1. rewrite Ha1. unfold bind at 1. rewrite Ha2.
  unfold bind at 1. rewrite Hp. rewrite H3, H4. reflexivity.
Qed.

Lemma unary_pass_ev : forall k (s s1: pstate) Q, peek_kind P s = Ok (Some k, s1) -> unary_pass k = true ->
  Ev (p_postfix_expression P) s1 Q -> Ev (p_unary_expression P) s Q.
Proof.
  intros k s s1 Q Hp Hpass H. eapply Ev_S; [apply (unary_eq P)|]. eapply Ev_step; [exact Hp|].
  unfold unary_pass in Hpass. do 3 (apply andb_true_iff in Hpass; destruct Hpass as [Hpass ?]).
  repeat match goal with X: negb _ = true |- _ => apply negb_true_iff in X; rewrite X end. exact H.
Qed.

(* first tokens in front of which a speculative "( type-name )" attempt gives up and p_unary_expression passes
   on to the postfix-expression: no prefix operator, and after `(` nothing that starts a declaration *)
Definition hd_ok (l: list tok) : Prop :=
  exists x tl, l = x :: tl /\ unary_pass (tk x) = true /\
    (kind_eqb (tk x) K_LPAREN = true -> exists x2 tl2, tl = x2 :: tl2 /\ kind_in (tk x2) tbl_DECL_START = false).

Lemma tptn_gives_up : forall (s: pstate) l, hd_ok l -> Up s l ->
  exists s1, (forall f, try_paren_type_name P (S f) s = Ok (None, s1)) /\ Up s1 l /\
             idx P s1 = idx P s /\ N.to_nat (ticks P s1) <= N.to_nat (ticks P s) + 1 /\ SC P s s1.
Proof.
  intros s l [x [tl [-> [_ Hlp]]]] HU. destruct (kind_eqb (tk x) K_LPAREN) eqn:El.
  - destruct (Hlp eq_refl) as [x2 [tl2 [-> Hd]]]. destruct (tptn_not_type_c s x x2 _ HU El Hd) as [s1 [H1 [HU1 [Hi [Ht Hsc]]]]].
    exists s1. split; [exact H1|split; [exact HU1|split; [exact Hi|split; [lia|exact Hsc]]]].
  - destruct (tptn_no_paren_c s x _ HU El) as [s1 [H1 [HU1 HS]]]. exists s1. split; [exact H1|split; [exact HU1|cost_tac]].
Qed.

(* p_unary_expression reaches the primary-expression and its suffix loop after one attempt, p_cast_expression after two *)
Lemma unary_to_primary : forall (s: pstate) l, hd_ok l -> Up s l ->
  exists s3, Up s3 l /\ (idx P s3 = idx P s /\ N.to_nat (ticks P s3) <= N.to_nat (ticks P s) + 1 /\ SC P s s3) /\
    forall Q, Ev (fun f => bind P (p_primary_expression P f) (p_postfix_suffixes P f)) s3 Q -> Ev (p_unary_expression P) s Q.
Proof.
  intros s l Hh HU. pose proof Hh as [x [tl [-> [Hpass _]]]].
  destruct (peek_kind_up P s x tl HU) as [s2 [H2 [HU2 HS2]]]. destruct (tptn_gives_up s2 _ Hh HU2) as [s3 [H3 [HU3 HC3]]].
  exists s3. split; [exact HU3|]. split; [cost_tac|]. intros Q HQ. apply (unary_pass_ev _ _ _ _ H2 Hpass).
  eapply Ev_S; [apply (postfix_eq P)|]. apply Ev_bind. apply (Ev_const P _ _ _ _ _ _ H3). exact HQ.
Qed.

Lemma cast_to_primary : forall (s: pstate) l, hd_ok l -> Up s l ->
  exists s3, Up s3 l /\ (idx P s3 = idx P s /\ N.to_nat (ticks P s3) <= N.to_nat (ticks P s) + 2 /\ SC P s s3) /\
    forall Q, Ev (fun f => bind P (p_primary_expression P f) (p_postfix_suffixes P f)) s3 Q -> Ev (p_cast_expression P) s Q.
Proof.
  intros s l Hh HU. destruct (tptn_gives_up s _ Hh HU) as [s1 [H1 [HU1 HC1]]].
  destruct (unary_to_primary s1 l Hh HU1) as [s3 [HU3 [HC3 K]]].
  exists s3. split; [exact HU3|]. split; [cost_tac|]. intros Q HQ.
  eapply Ev_S; [apply (cast_eq P)|]. apply Ev_bind. apply (Ev_const P _ _ _ _ _ _ H1). exact (K Q HQ).
Qed.

Lemma id_primary : forall (s: pstate) t l, Up s (t :: l) -> tk t = K_ID ->
  Ev (p_primary_expression P) s (fun N s' => Up s' l /\ strip N = VNode C_ID [VStr (tv t)] None /\ RanR P s s' 1).
Proof.
  intros s t l HU Hk. eapply Ev_S; [apply (primary_eq P)|]. destruct (peek_kind_up P s t _ HU) as [s1 [H1 [HU1 HS1]]]. eapply Ev_step; [exact H1|].
  assert (HisID: kind_eqb (tk t) K_ID = true) by (rewrite Hk; reflexivity). cbn [okind_is]. rewrite HisID. unfold p_identifier.
  destruct (expect_up P s1 t _ K_ID HU1 HisID) as [s2 [H2 [HU2 HA2]]]. eapply Ev_step; [exact H2|]. eapply Ev_step; [reflexivity|]. apply Ev_ret.
  split; [exact HU2|split; [reflexivity|cost_tac]].
Qed.

Lemma paren_primary : forall kvs X,
  (forall (s: pstate) le (stop: tok) l0, Spell le kvs -> Up s (le ++ stop :: l0) -> estop (tk stop) = true ->
     Ev (p_expression P) s (fun N s' => Up s' (stop :: l0) /\ strip N = X /\ Ran P s s' (length le))) ->
  forall (s: pstate) la rest, Spell la (parkv kvs) -> Up s (la ++ rest) ->
  Ev (p_primary_expression P) s (fun N s' => Up s' rest /\ strip N = X /\ RanR P s s' (length la)).
Proof.
  intros kvs X HE s la rest HS HU. destruct (Spell_cons_inv _ _ _ _ HS) as [lp [l2 [-> [Hlp [_ HS2]]]]].
  destruct (Spell_app_inv _ _ _ HS2) as [le [l3 [-> [HSe HS3]]]].
  destruct (Spell_cons_inv _ _ _ _ HS3) as [rpt [l4 [-> [Hrp [_ HS4]]]]]. apply Spell_nil_inv in HS4. subst l4.
  cbn [app] in HU. rewrite <- app_assoc in HU. cbn [app] in HU.
  eapply Ev_S; [apply (primary_eq P)|]. destruct (peek_kind_up P s lp _ HU) as [s1 [H1 [HU1 HS1]]]. eapply Ev_step; [exact H1|].
  rewrite Hlp. change (okind_is (Some K_LPAREN) K_ID) with false. cbn [okind_in kind_in]. change (okind_is (Some K_LPAREN) K_LPAREN) with true. cbv beta iota.
  destruct (advance_up P s1 lp _ HU1) as [s2 [H2 [HU2 HA2]]]. eapply Ev_step; [exact H2|]. apply Ev_bind.
  apply (Ev_mono _ _ _ _ _ _ (HE s2 le rpt _ HSe HU2 ltac:(rewrite Hrp; reflexivity))). intros N s3 (HU3 & HN & HR3).
  destruct (expect_up P s3 rpt _ K_RPAREN HU3) as [s4 [H4 [HU4 HA4]]]; [rewrite Hrp; reflexivity|]. eapply Ev_step; [exact H4|]. apply Ev_ret.
  split; [exact HU4|split; [exact HN|cost_tac]].
Qed.

(* the two reads that RanR leaves to spare pay for the two speculative attempts *)
Lemma primary_cast : forall (s: pstate) le (n: tok) l X, hd_ok (le ++ n :: l) -> Up s (le ++ n :: l) -> quiet (tk n) = true ->
  (forall s3, Up s3 (le ++ n :: l) ->
     Ev (p_primary_expression P) s3 (fun N s' => Up s' (n :: l) /\ strip N = X /\ RanR P s3 s' (length le))) ->
  Ev (p_cast_expression P) s (fun N s' => Up s' (n :: l) /\ strip N = X /\ Ran P s s' (length le)).
Proof.
  intros s le n l X Hh HU Hq Hp. destruct (cast_to_primary s _ Hh HU) as [s3 [HU3 [HC3 K]]]. apply K. apply Ev_bind.
  apply (Ev_mono _ _ _ _ _ _ (Hp s3 HU3)). intros N s4 (HU4 & HN & HR4).
  destruct (suffixes_stop_c s4 n l HU4 Hq) as [s5 [H5 [HU5 HS5]]]. apply (Ev_const P _ _ _ _ _ _ (fun f => H5 f N)).
  split; [exact HU5|split; [exact HN|cost_tac]].
Qed.

Lemma paren_cast_c : forall kvs X, (exists k v rest, kvs = (k, v) :: rest /\ kind_in k tbl_DECL_START = false) ->
  (forall (s: pstate) le (stop: tok) l0, Spell le kvs -> Up s (le ++ stop :: l0) -> estop (tk stop) = true ->
     Ev (p_expression P) s (fun N s' => Up s' (stop :: l0) /\ strip N = X /\ Ran P s s' (length le))) ->
  forall (s: pstate) la (n: tok) l, Spell la (parkv kvs) -> Up s (la ++ n :: l) -> quiet (tk n) = true ->
  Ev (p_cast_expression P) s (fun N s' => Up s' (n :: l) /\ strip N = X /\ Ran P s s' (length la)).
Proof.
  intros kvs X [k [v [rest [-> Hx]]]] HE s la n l HS HU Hq.
  apply primary_cast; [|exact HU|exact Hq|intros s3 HU3; exact (paren_primary _ X HE s3 la _ HS HU3)].
  destruct (Spell_cons_inv _ _ _ _ HS) as [lp [l2 [-> [Hlp [_ HS2]]]]]. destruct (Spell_cons_inv _ _ _ _ HS2) as [x [l3 [-> [Hkx _]]]].
  exists lp, ((x :: l3) ++ n :: l). split; [reflexivity|split; [rewrite Hlp; reflexivity|intros _]]. exists x, (l3 ++ n :: l). split; [reflexivity|rewrite Hkx; exact Hx].
Qed.

(* p_assignment_expression past its look-ahead for a GNU statement expression `({`, which finds none (asg_pre) *)
Definition asg_body (f: nat) : M P (ParserBase.node P) :=
  bind P (p_conditional_expression P f) (fun e => bind P (peek P) (fun t0 =>
    match t0 with
    | Some t' => if kind_in (tk t') tbl_ASSIGNMENT_OPS then
                   bind P (advance P) (fun op => bind P (p_assignment_expression P f) (fun rhs => bind P (coordA P e) (fun ec =>
                   ret P (mkN P C_Assignment [VStr (tv op); e; rhs] ec))))
                 else ret P e
    | None => ret P e end)).

Lemma asg_pre : forall (s: pstate) le rest k v kvs, Spell le ((k, v) :: kvs) -> Up s (le ++ rest) ->
  (kind_eqb k K_LPAREN = true -> exists k2 v2 kvs2, kvs = (k2, v2) :: kvs2 /\ kind_eqb k2 K_LBRACE = false) ->
  exists s2, Up s2 (le ++ rest) /\ Same P s s2 /\ forall Q, Ev asg_body s2 Q -> Ev (p_assignment_expression P) s Q.
Proof.
  intros s le rest k v kvs HS HU Hlp. destruct (Spell_cons_inv _ _ _ _ HS) as [x [tl [-> [Hk [_ HS1]]]]]. cbn [app] in *.
  destruct (peek_kind_up P s x _ HU) as [s1 [Hp1 [HU1 HSm1]]].
  assert (Hse: exists s2, Up s2 (x :: tl ++ rest) /\ Same P s1 s2 /\
            (if kind_eqb (tk x) K_LPAREN then bind P (peek_kind_k P 2) (fun k2 => ret P (okind_is k2 K_LBRACE)) else ret P false) s1 = Ok (false, s2)).
  { rewrite Hk. destruct (kind_eqb k K_LPAREN); [|exists s1; split; [exact HU1|split; [apply Same_refl|reflexivity]]].
    destruct (Hlp eq_refl) as [k2 [v2 [kvs2 [-> Hk2]]]]. destruct (Spell_cons_inv _ _ _ _ HS1) as [x2 [tl2 [-> [Hkx2 _]]]].
    destruct (peek2_up P s1 x x2 _ HU1) as [s2 [Hp2 [HU2 HS2]]].
    exists s2. split; [exact HU2|split; [exact HS2|]]. unfold bind. rewrite Hp2. unfold ret. cbn [okind_is]. rewrite Hkx2, Hk2. reflexivity. }
  destruct Hse as [s2 [HU2 [HS2 Hse]]]. exists s2. split; [exact HU2|split; [exact (Same_trans P _ _ _ HSm1 HS2)|]].
  intros Q HQ. eapply Ev_S; [apply (assign_eq P)|]. eapply Ev_step; [exact Hp1|]. eapply Ev_step; [exact Hse|]. exact HQ.
Qed.
End Steps.

(* precedence climbing over operands that are parsed back: p_binary_climb follows ClimbProofs.climb *)
Section Sim.
Variable P : Type.
Variable A : Type.
Variable katom : A -> list (kind * str).      (* an operand as the generator prints it (parenthesised if need be) *)
Variable eatom : A -> value unit.              (* the tree it denotes *)
Hypothesis eatom_node : forall a, exists c fs co, eatom a = VNode c fs co.
Notation pstate := (ParserBase.pstate P).
Notation tok := (ParserBase.tok P).
Notation Up := (Up P).
Notation Spell := (Spell P).
Notation gtree := (ClimbProofs.tree A str).
Notation climb := (ClimbProofs.climb A str gprec).
Notation inner := (ClimbProofs.inner A str gprec).

Definition kv_rest (r: list (str * A)) : list (kind * str) :=
  concat (map (fun oa => (opk (fst oa), fst oa) :: katom (snd oa)) r).

Definition AtomOK (a: A) : Prop :=
  forall (s: pstate) la (n: tok) l, Spell la (katom a) -> Up s (la ++ n :: l) -> quiet (tk n) = true ->
  Ev (p_cast_expression P) s (fun N s' => Up s' (n :: l) /\ strip N = eatom a /\ Ran P s s' (length la)).
Definition ROK (r: list (str * A)) : Prop := Forall (fun oa => prec_lookup_s (fst oa) <> None /\ AtomOK (snd oa)) r.

Fixpoint etree (T: gtree) : value unit :=
  match T with
  | Leaf _ _ a => eatom a
  | Bin _ _ o l r => VNode C_BinaryOp [VStr o; etree l; etree r] None
  end.

Lemma etree_node : forall T, exists c fs co, etree T = VNode c fs co.
Proof. intros [a|o l r]; [apply eatom_node|]. cbn. eexists. eexists. eexists. reflexivity. Qed.

Lemma head_next : forall r lr (stop: tok) l0, ROK r -> Spell lr (kv_rest r) -> bstop (tk stop) = true ->
  exists n l', lr ++ stop :: l0 = n :: l' /\ quiet (tk n) = true /\
    prec_of (tk n) = match r with [] => None | (o, _) :: _ => Some (gprec o) end.
Proof.
  intros r lr stop l0 HR HS Hb. destruct r as [|[o a] r1].
  - apply Spell_nil_inv in HS. subst lr. exists stop, l0. apply bstop_facts in Hb. tauto.
  - cbn [kv_rest map concat fst snd app] in HS. destruct (Spell_cons_inv _ _ _ _ _ HS) as [t [l2 [-> [Hk [_ _]]]]].
    exists t, (l2 ++ stop :: l0). inversion HR as [|x y [Ho _] _]; subst. rewrite Hk. destruct (opk_facts o Ho) as [Hp Hq]. tauto.
Qed.

(* the loops hand back a final part of the sequence they were given *)
Lemma climb_ROK : forall fu m h r T r', climb fu m h r = Some (T, r') -> ROK r -> ROK r'.
Proof.
  intros fu m h r T r' H HR. destruct (proj1 (ClimbProofs.sound A str gprec fu) _ _ _ _ _ H) as [l [-> _]].
  exact (proj2 (proj1 (Forall_app _ _ _) HR)).
Qed.
Lemma inner_ROK : forall fu p h r T r', inner fu p h r = Some (T, r') -> ROK r -> ROK r'.
Proof.
  intros fu p h r T r' H HR. destruct (proj2 (ClimbProofs.sound A str gprec fu) _ _ _ _ _ H) as [l [-> _]].
  exact (proj2 (proj1 (Forall_app _ _ _) HR)).
Qed.

(* what a loop leaves behind: the node of X, in front of the part lr' of lr that spells what is left of the sequence *)
Definition Left (s: pstate) (lr: list tok) (stop: tok) l0 (r': list (str * A)) (X: value unit) (N: ParserBase.node P) (s': pstate) : Prop :=
  exists lr', Spell lr' (kv_rest r') /\ Up s' (lr' ++ stop :: l0) /\ strip N = X /\
    idx P s' + length lr' = idx P s + length lr /\ N.to_nat (ticks P s') + 3 * length lr' <= N.to_nat (ticks P s) + 3 * length lr /\ SC P s s'.

Definition SimC (fu: nat) : Prop := forall m h r T r', climb fu m h r = Some (T, r') -> ROK r ->
  forall (s: pstate) lr stop l0 hN, Spell lr (kv_rest r) -> Up s (lr ++ stop :: l0) -> bstop (tk stop) = true -> strip hN = etree h ->
  Ev (fun f => p_binary_climb P f m hN) s (Left s lr stop l0 r' (etree T)).
Definition SimI (fu: nat) : Prop := forall p h r T r', inner fu p h r = Some (T, r') -> ROK r ->
  forall (s: pstate) lr stop l0 hN, Spell lr (kv_rest r) -> Up s (lr ++ stop :: l0) -> bstop (tk stop) = true -> strip hN = etree h ->
  Ev (fun f => p_binary_inner P f p hN) s (Left s lr stop l0 r' (etree T)).

Lemma sim : forall fu, SimC fu /\ SimI fu.
Proof.
  induction fu as [|fu [IHC IHI]]; [split; intros ? ? ? ? ? H; discriminate H|].
  (* either loop first looks at the next token; if that sends it back, it returns what it has *)
  assert (Hlook: forall r (s: pstate) lr stop l0, ROK r -> Spell lr (kv_rest r) -> Up s (lr ++ stop :: l0) -> bstop (tk stop) = true ->
            exists t l' s1, lr ++ stop :: l0 = t :: l' /\ peek P s = Ok (Some t, s1) /\ Up s1 (t :: l') /\ Same P s s1 /\
              prec_of (tk t) = match r with [] => None | (o, _) :: _ => Some (gprec o) end /\
              forall h hN, strip hN = etree h -> Left s lr stop l0 r (etree h) hN s1).
  { intros r s lr stop l0 HR HS HU Hb. destruct (head_next r lr stop l0 HR HS Hb) as [t [l' [En [_ Hprec]]]]. rewrite En in HU.
    destruct (peek_up P s t l' HU) as [s1 [Hp [HU1 HS1]]]. exists t, l', s1. repeat (split; [assumption|]).
    intros h hN Hh. exists lr. rewrite En. split; [exact HS|split; [exact HU1|split; [exact Hh|cost_tac]]]. }
  split.
  - intros m h r T r' H HR s lr stop l0 hN HS HU Hb Hh. rewrite ClimbComplete.climb_S in H.
    destruct (Hlook r s lr stop l0 HR HS HU Hb) as [t [l' [s1 [En [Hp [HU1 [HSm1 [Hprec Hstay]]]]]]]].
    eapply Ev_S; [intros f; apply (climb_eq P)|]. eapply Ev_step; [exact Hp|]. cbv beta iota. rewrite Hprec.
    destruct r as [|[o a] r1]; [injection H as <- <-; apply Ev_ret; exact (Hstay h hN Hh)|].
    destruct (gprec o <? m); [injection H as <- <-; apply Ev_ret; exact (Hstay h hN Hh)|].
    inversion HR as [|x y [_ HA] HR1]; subst x y. cbn [snd] in HA.
    destruct (inner fu (gprec o) (Leaf A str a) r1) as [[rhs r2]|] eqn:EI; [|discriminate H].
    destruct (Spell_cons_inv _ _ (opk o) o _ HS) as [t' [lr2 [-> [_ [Hv HS2]]]]]. injection En as -> <-.
    destruct (Spell_app_inv _ _ _ _ HS2) as [la [lr1 [-> [HSa HS1]]]].
    destruct (advance_up P s1 t _ HU1) as [s2 [Had [HU2 HA2]]]. eapply Ev_step; [exact Had|].
    destruct (head_next r1 lr1 stop l0 HR1 HS1 Hb) as [n [l' [En [Hqn _]]]]. rewrite <- app_assoc in HU2. rewrite En in HU2.
    apply Ev_bind. apply (Ev_mono _ _ _ _ _ _ (HA s2 la n l' HSa HU2 Hqn)). intros aN s3 (HU3 & HaN & HR3). rewrite <- En in HU3.
    apply Ev_bind. apply (Ev_mono _ _ _ _ _ _ (IHI _ _ _ _ _ EI HR1 s3 lr1 stop l0 aN HS1 HU3 Hb HaN)). intros rN s4 (lr2' & HS2' & HU4 & HrN & HP4).
    destruct (etree_node h) as [c [fs [co Eh]]]. destruct (coordA_node P hN c fs co s4) as [ec Hec]; [rewrite Hh; exact Eh|].
    eapply Ev_step; [exact Hec|]. cbv beta.
    eapply Ev_mono; [apply (IHC _ _ _ _ _ H (inner_ROK _ _ _ _ _ _ EI HR1) s4 lr2' stop l0 _ HS2' HU4 Hb); unfold mkN; cbn [strip map etree]; rewrite Hv, HrN, Hh; reflexivity|].
    intros N s5 (lr' & HS' & HU5 & HN & HP5). exists lr'. split; [exact HS'|split; [exact HU5|split; [exact HN|clear - HSm1 HA2 HR3 HP4 HP5; cost_tac]]].
  - intros p h r T r' H HR s lr stop l0 hN HS HU Hb Hh. rewrite ClimbComplete.inner_S in H.
    destruct (Hlook r s lr stop l0 HR HS HU Hb) as [t [l' [s1 [En [Hp [HU1 [HSm1 [Hprec Hstay]]]]]]]].
    eapply Ev_S; [intros f; apply (inner_eq P)|]. eapply Ev_step; [exact Hp|]. cbv beta iota. rewrite Hprec.
    destruct r as [|[o2 a2] r1]; [injection H as <- <-; apply Ev_ret; exact (Hstay h hN Hh)|].
    destruct (p <? gprec o2); [|injection H as <- <-; apply Ev_ret; exact (Hstay h hN Hh)].
    destruct (climb fu (gprec o2) h ((o2, a2) :: r1)) as [[rhs' r2]|] eqn:EC; [|discriminate H]. rewrite <- En in HU1.
    apply Ev_bind. apply (Ev_mono _ _ _ _ _ _ (IHC _ _ _ _ _ EC HR s1 lr stop l0 hN HS HU1 Hb Hh)). intros cN s2 (lr2' & HS2' & HU2 & HcN & HP2).
    apply (Ev_mono _ _ _ _ _ _ (IHI _ _ _ _ _ H (climb_ROK _ _ _ _ _ _ EC HR) s2 lr2' stop l0 cN HS2' HU2 Hb HcN)). intros N s3 (lr' & HS' & HU3 & HN & HP3).
    exists lr'. split; [exact HS'|split; [exact HU3|split; [exact HN|clear - HSm1 HP2 HP3; cost_tac]]].
Qed.

Lemma cond_climb : forall fu a r T, climb fu 0 (Leaf A str a) r = Some (T, []) -> AtomOK a -> ROK r ->
  forall (s: pstate) le (stop: tok) l0, Spell le (katom a ++ kv_rest r) -> Up s (le ++ stop :: l0) ->
  bstop (tk stop) = true -> kind_eqb (tk stop) K_CONDOP = false ->
  Ev (p_conditional_expression P) s (fun N s' => Up s' (stop :: l0) /\ strip N = etree T /\ Ran P s s' (length le)).
Proof.
  intros fu a r T Hclimb Ha Hr s le stop l0 HS HU Hb Hcond. pose proof (proj1 (sim fu) _ _ _ _ _ Hclimb Hr) as HCl.
  destruct (Spell_app_inv _ _ _ _ HS) as [la [lr [-> [HSa HSr]]]].
  destruct (head_next _ lr stop l0 Hr HSr Hb) as [nq [lq [Enq [Hnq _]]]]. rewrite <- app_assoc in HU. rewrite Enq in HU.
  eapply Ev_S; [apply (cond_eq P)|]. apply Ev_bind. apply (Ev_mono _ _ _ _ _ _ (Ha s la nq lq HSa HU Hnq)). intros aN s2 (HU2 & HaN & HR2). rewrite <- Enq in HU2.
  apply Ev_bind. apply (Ev_mono _ _ _ _ _ _ (HCl s2 lr stop l0 aN HSr HU2 Hb HaN)). intros N s3 (lr' & HS' & HU3 & HN & HP3).
  apply Spell_nil_inv in HS'. subst lr'.
  destruct (accept_miss P s3 stop l0 K_CONDOP HU3 Hcond) as [s4 [Hq [HU4 HS4]]]. eapply Ev_step; [exact Hq|]. apply Ev_ret.
  split; [exact HU4|split; [exact HN|clear - HR2 HP3 HS4; cost_tac]].
Qed.
End Sim.

(* a printed tree of binary operators as the parser sees it: the head operand and the (operator, operand) sequence of
   GenParen.flatten, whose climb is the tree *)
Section Flat.
Variable P : Type.
Variable rp : bool.
Variable base : Type.
Notation gt := (GenParen.gt base str).
Notation keepL := (GenParen.keepL base str gprec rp).
Notation keepR := (GenParen.keepR base str gprec rp).
Notation flatten := (GenParen.flatten base str gprec rp).
Notation skel := (GenParen.skel base str gprec rp).
Variable F katom : gt -> list (kind * str).      (* a tree as printed, an operand as printed (parenthesised if need be) *)
Variable E : gt -> value unit.
Hypothesis F_leaf : forall b, F (GLeaf base str b) = katom (GLeaf base str b).
Hypothesis F_bin : forall o l r, F (GBin base str o l r) = (if keepL o l then F l else katom l) ++ (opk o, o) :: (if keepR o r then F r else katom r).
Hypothesis E_bin : forall o l r, E (GBin base str o l r) = VNode C_BinaryOp [VStr o; E l; E r] None.
Hypothesis E_node : forall a, exists c fs co, E a = VNode c fs co.
Notation AtomOK := (AtomOK P gt katom E).
Notation ROK := (ROK P gt katom E).

Lemma F_flatten : forall t, F t = katom (fst (flatten t)) ++ kv_rest gt katom (snd (flatten t)).
Proof.
  induction t as [b|o l IHl r IHr]; [rewrite F_leaf; cbn; rewrite app_nil_r; reflexivity|]. rewrite F_bin. cbn [GenParen.flatten].
  (* an operand, printed as a tree of its own or as an atom *)
  assert (Hop: forall (k: bool) a, F a = katom (fst (flatten a)) ++ kv_rest gt katom (snd (flatten a)) ->
            (if k then F a else katom a) = katom (fst (if k then flatten a else (a, []))) ++ kv_rest gt katom (snd (if k then flatten a else (a, [])))).
  { intros [|] a H; [exact H|]. cbn [fst snd kv_rest map concat]. rewrite app_nil_r. reflexivity. }
  rewrite (Hop _ l IHl), (Hop _ r IHr). destruct (if keepL o l then flatten l else (l, [])) as [hl ll]. destruct (if keepR o r then flatten r else (r, [])) as [hr lr].
  cbn [fst snd]. unfold kv_rest. rewrite map_app, concat_app. cbn [map concat fst snd]. rewrite <- !app_assoc. reflexivity.
Qed.

Lemma etree_skel : forall t, etree gt E (skel t) = E t.
Proof.
  induction t as [b|o l IHl r IHr]; [reflexivity|]. rewrite E_bin. cbn [GenParen.skel etree].
  destruct (keepL o l); destruct (keepR o r); cbn [etree]; rewrite ?IHl, ?IHr; reflexivity.
Qed.

(* the operands of the flattened sequence are parsed back if every smaller tree, as an operand, is *)
Variable OK : gt -> Prop.
Variable h : gt -> nat.
Hypothesis OK_bin : forall o l r, OK (GBin base str o l r) -> prec_lookup_s o <> None /\ OK l /\ OK r.
Hypothesis h_bin : forall o l r, h l < h (GBin base str o l r) /\ h r < h (GBin base str o l r).

Lemma flatten_ok : forall t, OK t -> (forall a, h a < h t -> OK a -> AtomOK a) -> (exists o l r, t = GBin base str o l r) ->
  AtomOK (fst (flatten t)) /\ ROK (snd (flatten t)).
Proof.
  induction t as [b|o l IHl r IHr]; intros Hok Hsm Hnl; [destruct Hnl as [? [? [? ?]]]; discriminate|].
  destruct (OK_bin _ _ _ Hok) as [Ho [Hol Hor]]. destruct (h_bin o l r) as [Hhl Hhr]. cbn [GenParen.flatten].
  assert (HL: AtomOK (fst (if keepL o l then flatten l else (l, []))) /\ ROK (snd (if keepL o l then flatten l else (l, [])))).
  { destruct (keepL o l) eqn:El.
    - destruct l as [b|ol l1 l2]; [discriminate El|]. apply IHl; [exact Hol| |eexists; eexists; eexists; reflexivity].
      intros a Ha Hoa. apply Hsm; [lia|exact Hoa].
    - cbn [fst snd]. split; [|constructor]. apply Hsm; [exact Hhl|exact Hol]. }
  assert (HRr: AtomOK (fst (if keepR o r then flatten r else (r, []))) /\ ROK (snd (if keepR o r then flatten r else (r, [])))).
  { destruct (keepR o r) eqn:Er.
    - destruct r as [b|orr r1 r2]; [discriminate Er|]. apply IHr; [exact Hor| |eexists; eexists; eexists; reflexivity].
      intros a Ha Hoa. apply Hsm; [lia|exact Hoa].
    - cbn [fst snd]. split; [|constructor]. apply Hsm; [exact Hhr|exact Hor]. }
  destruct (if keepL o l then flatten l else (l, [])) as [hl ll]. destruct (if keepR o r then flatten r else (r, [])) as [hr lr]. cbn [fst snd] in *.
  destruct HL as [HL1 HL2]. destruct HRr as [HR1 HR2]. split; [exact HL1|].
  apply Forall_app. split; [exact HL2|]. constructor; [|exact HR2]. cbn [fst snd]. split; [exact Ho|exact HR1].
Qed.

Lemma cond_flat : forall t, AtomOK (fst (flatten t)) -> ROK (snd (flatten t)) ->
  forall (s: ParserBase.pstate P) le (stop: ParserBase.tok P) l0, Spell P le (F t) -> Up P s (le ++ stop :: l0) ->
  bstop (tk stop) = true -> kind_eqb (tk stop) K_CONDOP = false ->
  Ev (p_conditional_expression P) s (fun N s' => Up P s' (stop :: l0) /\ strip N = E t /\ Ran P s s' (length le)).
Proof.
  intros t Ha Hr. rewrite F_flatten, <- etree_skel.
  destruct (proj2 (ClimbComplete.climb_iff_grammar gt str gprec _ _ _) (proj2 (GenParen.generated_sequence_has_exactly_its_tree base str gprec rp t _) eq_refl)) as [fu Hclimb].
  exact (cond_climb P gt katom E E_node fu _ _ _ Hclimb Ha Hr).
Qed.
End Flat.

Section RT.
Variable P : Type.
Variable rp : bool.
Notation gt := (GenParen.gt str str).
Notation pstate := (ParserBase.pstate P).
Notation tok := (ParserBase.tok P).
Notation Up := (Up P).
Notation Spell := (Spell P).

Notation keepL := (GenParen.keepL str str gprec rp).
Notation keepR := (GenParen.keepR str str gprec rp).
Notation flatten := (GenParen.flatten str str gprec rp).

Fixpoint kv (t: gt) : list (kind * str) :=
  match t with
  | GLeaf _ _ a => [(K_ID, a)]
  | GBin _ _ o l r =>
    (if GenBinop.is_leaf l || keepL o l then kv l else parkv (kv l)) ++ (opk o, o) ::
    (if GenBinop.is_leaf r || keepR o r then kv r else parkv (kv r))
  end.
Definition kv_atom (a: gt) : list (kind * str) := if GenBinop.is_leaf a then kv a else parkv (kv a).
Notation AtomOK := (AtomOK P gt kv_atom (emb unit)).
Notation ROK := (ROK P gt kv_atom (emb unit)).

Lemma emb_node : forall a: gt, exists c fs co, emb unit a = VNode c fs co.
Proof. intros [a|o l r]; cbn; eexists; eexists; eexists; reflexivity. Qed.

Lemma kv_bin : forall o l r, kv (GBin str str o l r) = (if keepL o l then kv l else kv_atom l) ++ (opk o, o) :: (if keepR o r then kv r else kv_atom r).
Proof. intros o l r. destruct l; destruct r; reflexivity. Qed.

Definition head_ok (kvs: list (kind * str)) : Prop :=
  exists k v rest, kvs = (k, v) :: rest /\
    (k = K_ID \/ (k = K_LPAREN /\ exists k2 v2 rest2, rest = (k2, v2) :: rest2 /\ (k2 = K_ID \/ k2 = K_LPAREN))).

Lemma head_ok_app : forall x y, head_ok x -> head_ok (x ++ y).
Proof.
  intros x y [k [v [rest [-> H]]]]. exists k, v, (rest ++ y). split; [reflexivity|]. destruct H as [H|[H [k2 [v2 [rest2 [-> H2]]]]]]; [left; exact H|].
  right. split; [exact H|]. exists k2, v2, (rest2 ++ y). split; [reflexivity|exact H2].
Qed.

Lemma kv_head : forall t, head_ok (kv t).
Proof.
  induction t as [a|o l IHl r IHr].
  - exists K_ID, a, []. split; [reflexivity|left; reflexivity].
  - cbn [kv]. apply head_ok_app. destruct (GenBinop.is_leaf l || keepL o l); [exact IHl|].
    destruct IHl as [k [v [rest [E H]]]]. unfold parkv. rewrite E. exists K_LPAREN, (s2l "("), (((k, v) :: rest) ++ [(K_RPAREN, s2l ")")]).
    split; [reflexivity|]. right. split; [reflexivity|]. exists k, v, (rest ++ [(K_RPAREN, s2l ")")]). split; [reflexivity|].
    destruct H as [H|[H _]]; [left|right]; exact H.
Qed.

Lemma leaf_atom_ok : forall a, AtomOK (GLeaf str str a).
Proof.
  intros a s la n l HS HU Hq. destruct (Spell_cons_inv _ _ _ _ _ HS) as [t [l2 [-> [Hk [Hv HS2]]]]]. apply Spell_nil_inv in HS2. subst l2 a.
  apply primary_cast; [|exact HU|exact Hq|intros s3 HU3; exact (id_primary P s3 t _ HU3 Hk)].
  exists t, (n :: l). rewrite Hk. split; [reflexivity|split; [reflexivity|discriminate]].
Qed.

Definition MainC (t: gt) : Prop :=
  forall (s: pstate) le (stop: tok) l0, Spell le (kv t) -> Up s (le ++ stop :: l0) -> estop (tk stop) = true ->
  Ev (p_expression P) s (fun N s' => Up s' (stop :: l0) /\ strip N = emb unit t /\ Ran P s s' (length le)).

Lemma paren_atom_ok : forall t, GenBinop.is_leaf t = false -> MainC t -> AtomOK t.
Proof.
  intros t Hnl HM s la n l HS. unfold kv_atom in HS. rewrite Hnl in HS. apply (paren_cast_c P (kv t) (emb unit t)); [|exact HM|exact HS].
  destruct (kv_head t) as [k [v [rest [Ek Hk]]]]. exists k, v, rest. split; [exact Ek|]. destruct Hk as [->|[-> _]]; reflexivity.
Qed.

Lemma main_all : forall n t, height t <= n -> ops_known t -> MainC t.
Proof.
  induction n as [|n IH]; intros t Hh Hok; [destruct t; cbn in Hh; lia|].
  assert (Hatoms: forall a, height a < height t -> ops_known a -> AtomOK a).
  { intros a Ha Hoa. destruct a as [x|o l r]; [apply leaf_atom_ok|]. apply paren_atom_ok; [reflexivity|]. apply IH; [lia|exact Hoa]. }
  assert (Hhd: AtomOK (fst (flatten t)) /\ ROK (snd (flatten t))).
  { destruct t as [x|o l r]; [cbn; split; [apply leaf_atom_ok|constructor]|].
    apply (flatten_ok P rp str kv_atom (emb unit) ops_known height (fun _ _ _ H => H)); [intros; cbn [height]; lia|exact Hok|exact Hatoms|].
    eexists; eexists; eexists; reflexivity. }
  destruct Hhd as [Hhd Hrs].
  intros s le stop l0 HS HU Hst. destruct (estop_facts _ Hst) as [Hb [Hcond [Hasg Hcomma]]].
  (* p_expression; p_assignment_expression, its look-ahead for a GNU statement expression; no assignment operator, no `,` *)
  destruct (kv_head t) as [k [v [r [Ek Hk]]]]. pose proof HS as HS0. rewrite Ek in HS0.
  destruct (asg_pre P s le (stop :: l0) k v r HS0 HU) as [s1 [HU1 [HS1 Hasn]]].
  { destruct Hk as [->|[-> [k2 [v2 [r2 [-> Hk2]]]]]]; [discriminate|]. intros _. exists k2, v2, r2. split; [reflexivity|destruct Hk2 as [-> | ->]; reflexivity]. }
  eapply Ev_S; [apply (expr_eq P)|]. apply Ev_bind. apply Hasn. apply Ev_bind.
  apply (Ev_mono _ _ _ _ _ _ (cond_flat P rp str kv kv_atom (emb unit) (fun _ => eq_refl) kv_bin (fun _ _ _ => eq_refl) emb_node t Hhd Hrs s1 le stop l0 HS HU1 Hb Hcond)).
  intros N s4 (HU4 & HN & HR4).
  destruct (peek_up P s4 stop l0 HU4) as [s5 [Hpk [HU5 HS5]]]. eapply Ev_step; [exact Hpk|]. cbv beta iota. rewrite Hasg. apply Ev_ret.
  destruct (accept_miss P s5 stop l0 K_COMMA HU5 Hcomma) as [s6 [Hcm [HU6 HS6]]]. eapply Ev_step; [exact Hcm|]. apply Ev_ret.
  split; [exact HU6|split; [exact HN|clear - HS1 HR4 HS5 HS6; cost_tac]].
Qed.

(* parse . generate = id, token level, every binary-operator tree over identifiers *)
Theorem parse_of_generated_tokens : forall t, ops_known t ->
  forall (s: pstate) le stop l0, Spell le (kv t) -> Up s (le ++ stop :: l0) -> estop (tk stop) = true ->
  exists f0 N s', (forall f, f0 <= f -> p_expression P f s = Ok (N, s')) /\ Up s' (stop :: l0) /\ strip N = emb unit t.
Proof.
  intros t Hok s le stop l0 HS HU Hst. destruct (main_all (height t) t (le_n _) Hok s le stop l0 HS HU Hst) as [f0 [N [s' [H [HU' [HN _]]]]]].
  exists f0, N, s'. split; [exact H|split; [exact HU'|exact HN]].
Qed.
End RT.

Definition spell1 (e: kind * str) : str :=
  match prec_of (fst e) with Some _ => s2l " " ++ snd e ++ s2l " " | None => snd e end.
Definition text_of (l: list (kind * str)) : str := concat (map spell1 l).

Lemma text_of_app : forall a b, text_of (a ++ b) = text_of a ++ text_of b.
Proof. intros a b. unfold text_of. rewrite map_app, concat_app. reflexivity. Qed.

Lemma text_of_parkv : forall x, text_of (parkv x) = GenBinop.par (text_of x).
Proof.
  intros x. unfold parkv, GenBinop.par. change ((K_LPAREN, s2l "(") :: x ++ [(K_RPAREN, s2l ")")]) with ([(K_LPAREN, s2l "(")] ++ x ++ [(K_RPAREN, s2l ")")]).
  rewrite !text_of_app. reflexivity.
Qed.

Theorem print_is_text : forall rp t, ops_known t -> GenBinop.print rp t = text_of (kv rp t).
Proof.
  intros rp. induction t as [a|o l IHl r IHr]; intros Hok.
  - cbn. rewrite app_nil_r. reflexivity.
  - cbn [ops_known] in Hok. destruct Hok as [Ho [Hol Hor]]. cbn [GenBinop.print kv].
    rewrite text_of_app. change ((opk o, o) :: ?x) with ([(opk o, o)] ++ x). rewrite text_of_app.
    assert (Eo: text_of [(opk o, o)] = s2l " " ++ o ++ s2l " ").
    { unfold text_of, spell1. cbn [map concat fst snd]. destruct (opk_facts o Ho) as [-> _]. rewrite app_nil_r. reflexivity. }
    rewrite Eo. rewrite <- !app_assoc.
    assert (EL: (if GenBinop.is_leaf l || GenParen.keepL str str gprec rp o l then GenBinop.print rp l else GenBinop.par (GenBinop.print rp l)) =
                text_of (if GenBinop.is_leaf l || GenParen.keepL str str gprec rp o l then kv rp l else parkv (kv rp l))).
    { destruct (GenBinop.is_leaf l || GenParen.keepL str str gprec rp o l); [apply IHl; exact Hol|]. rewrite text_of_parkv, (IHl Hol). reflexivity. }
    assert (ER: (if GenBinop.is_leaf r || GenParen.keepR str str gprec rp o r then GenBinop.print rp r else GenBinop.par (GenBinop.print rp r)) =
                text_of (if GenBinop.is_leaf r || GenParen.keepR str str gprec rp o r then kv rp r else parkv (kv rp r))).
    { destruct (GenBinop.is_leaf r || GenParen.keepR str str gprec rp o r); [apply IHr; exact Hor|]. rewrite text_of_parkv, (IHr Hor). reflexivity. }
    apply f_equal2; [exact EL|]. apply (f_equal (app (s2l " "))). apply (f_equal (app o)). apply (f_equal (app (s2l " "))). exact ER.
Qed.

(* the hypotheses are satisfiable: `( a + b ) * c ;` at the start of a translation unit *)
Definition ex_tree : GenParen.gt str str :=
  GBin str str (s2l "*") (GBin str str (s2l "+") (GLeaf str str (s2l "a")) (GLeaf str str (s2l "b"))) (GLeaf str str (s2l "c")).
Definition ex_items : list (pitem nat) :=
  [PTok nat K_LPAREN (s2l "(") 1 0; PTok nat K_ID (s2l "a") 2 0; PTok nat K_PLUS (s2l "+") 3 0; PTok nat K_ID (s2l "b") 4 0;
   PTok nat K_RPAREN (s2l ")") 5 0; PTok nat K_TIMES (s2l "*") 6 0; PTok nat K_ID (s2l "c") 7 0; PTok nat K_SEMI (s2l ";") 8 0].
Definition ex_state : pstate nat := mkPS nat ex_items 0 [] [] 0 [[]] 0 0%N.
Definition ex_toks : list (tok nat) :=
  [mkTok nat K_LPAREN (s2l "(") 1; mkTok nat K_ID (s2l "a") 2; mkTok nat K_PLUS (s2l "+") 3; mkTok nat K_ID (s2l "b") 4;
   mkTok nat K_RPAREN (s2l ")") 5; mkTok nat K_TIMES (s2l "*") 6; mkTok nat K_ID (s2l "c") 7].
Example roundtrip_hypotheses_satisfiable :
  ops_known ex_tree /\ Spell nat ex_toks (kv false ex_tree) /\ Up nat ex_state (ex_toks ++ [mkTok nat K_SEMI (s2l ";") 8]) /\
  estop K_SEMI = true /\ GenBinop.print false ex_tree = s2l "(a + b) * c".
Proof.
  split; [cbn; repeat split; discriminate|]. split; [vm_compute; reflexivity|]. split; [|split; vm_compute; reflexivity].
  apply Up_initial; [reflexivity|]. cbn [ex_state scopes raw ex_items ex_toks app].
  repeat (eapply UpR_cons; [vm_compute; reflexivity|]). apply UpR_nil.
Qed.
