(* C07 / C05, token level: parse . generate = id for STATEMENTS over the expression language of
   RoundTripX: expression statements, the empty statement, return / break / continue / goto, labelled statements,
   if with and without else, while, do-while, for with every clause present or absent, and blocks of such statements
   and of declarations `T x;` / `T x = e;` - nested in any way.
   [stoks rp st] is the token sequence of the text CGenerator prints for st; whenever the whole-parser
   model (p_pragmacomp_or_statement: the production behind every sub-statement position) finds these
   tokens, it returns exactly st.  The only side condition on the statement is C's own: the then-branch of an if WITH an
   else must not end in an if without one (the generator does not add braces), and an if without else
   must not be followed by `else`.  Where blocks declare objects, the scope stack must hold no typedef name. *)
From Coq Require Import String.
From Coq Require Import List NArith Bool Arith Lia.
Import ListNotations.
From PV Require Import Regex Base AstDefs AstSpec AstImpl GenTables NodeModel Generator ClimbProofs ClimbComplete GenParen GenBinop.
From PV Require Import LexTables ParserTables PyRepr ParserBase ParserDecl ParserMain LexerProofs TableProofs.
From PV Require Import BinaryRefine ExprShape UnaryShape CoordProofs ElseProofs StmtShape StreamLib RoundTrip Triple RoundTripGen RoundTripX TypeName DeclTrip.
Open Scope nat_scope.

Inductive st :=
| SExpr (e: ex)
| SEmpty
| SReturn (e: option ex)
| SBreak
| SContinue
| SGoto (l: str)
| SIf (c: ex) (th: st) (el: option st)
| SWhile (c: ex) (b: st)
| SDo (b: st) (c: ex)
| SFor (i c n: option ex) (b: st)
| SBlock (items: list st)
| SLabel (l: str) (b: st)
| SDecl (ty: list (kind * str)) (x: str) (i: option ex).   (* T x; / T x = e;  - a block item only *)

(* does the statement end in an if without else? *)
Fixpoint sopen (x: st) : bool :=
  match x with
  | SIf _ _ None => true
  | SIf _ _ (Some el) => sopen el
  | SWhile _ b | SFor _ _ _ b | SLabel _ b => sopen b
  | _ => false
  end.

Definition owf (o: option ex) : Prop := match o with Some e => wf e | None => True end.
Definition dwf (dok: bool) (ty: list (kind * str)) (x: str) (i: option ex) : Prop :=
  dok = true /\ ty <> [] /\ Forall (fun kv => kind_in (fst kv) tbl_TYPE_SPEC_SIMPLE = true) ty /\ owf i /\ x <> [].
(* [dok]: are declarations allowed as block items?  (they need a scope stack without typedef names) *)
Fixpoint swfd (dok: bool) (x: st) : Prop :=
  match x with
  | SExpr e => wf e
  | SReturn o => owf o
  | SIf c th el => wf c /\ swfd dok th /\ match el with Some e => sopen th = false /\ swfd dok e | None => True end
  | SWhile c b => wf c /\ swfd dok b
  | SDo b c => swfd dok b /\ wf c
  | SFor i c n b => owf i /\ owf c /\ owf n /\ swfd dok b
  | SLabel _ b => swfd dok b
  | SBlock items => (fix wl (l: list st) : Prop :=
                       match l with [] => True | y :: r => match y with SDecl ty dx i => dwf dok ty dx i | _ => swfd dok y end /\ wl r end) items
  | SDecl _ _ _ => False
  | _ => True
  end.
Definition bwfd (dok: bool) (y: st) : Prop := match y with SDecl ty dx i => dwf dok ty dx i | _ => swfd dok y end.
Definition swfl (dok: bool) (l: list st) : Prop := (fix wl (l: list st) : Prop := match l with [] => True | y :: r => bwfd dok y /\ wl r end) l.
(* statements without declarations, and statements whose blocks may declare objects *)
Definition swf (x: st) : Prop := swfd false x.
Definition swfD (x: st) : Prop := swfd true x.

Fixpoint ssize (x: st) : nat :=
  match x with
  | SIf _ th el => S (ssize th + match el with Some e => ssize e | None => 0 end)
  | SWhile _ b | SDo b _ | SFor _ _ _ b | SLabel _ b => S (ssize b)
  | SBlock items => S (list_sum (map ssize items))
  | _ => 1
  end.

Definition oemb (o: option ex) : value unit := match o with Some e => embx e | None => VNone end.
Fixpoint embs (x: st) : value unit :=
  match x with
  | SExpr e => embx e
  | SEmpty => VNode C_EmptyStatement [] None
  | SReturn o => VNode C_Return [oemb o] None
  | SBreak => VNode C_Break [] None
  | SContinue => VNode C_Continue [] None
  | SGoto l => VNode C_Goto [VStr l] None
  | SIf c th el => VNode C_If [embx c; embs th; match el with Some e => embs e | None => VNone end] None
  | SWhile c b => VNode C_While [embx c; embs b] None
  | SDo b c => VNode C_DoWhile [embx c; embs b] None
  | SFor i c n b => VNode C_For [oemb i; oemb c; oemb n; embs b] None
  | SBlock items => VNode C_Compound [match items with [] => VNone | _ => VList (map embs items) end] None
  | SLabel l b => VNode C_Label [VStr l; embs b] None
  | SDecl ty x i => dembed ty x (oemb i)
  end.

Section STK.
Variable rp : bool.
Definition kw (k: kind) (x: String.string) : kind * str := (k, s2l x).
Definition oxt (o: option ex) : list (kind * str) := match o with Some e => xt rp e | None => [] end.
Fixpoint stoks (x: st) : list (kind * str) :=
  match x with
  | SExpr e => xt rp e ++ [kw K_SEMI ";"]
  | SEmpty => [kw K_SEMI ";"]
  | SReturn o => kw K_RETURN "return" :: oxt o ++ [kw K_SEMI ";"]
  | SBreak => [kw K_BREAK "break"; kw K_SEMI ";"]
  | SContinue => [kw K_CONTINUE "continue"; kw K_SEMI ";"]
  | SGoto l => [kw K_GOTO "goto"; (K_ID, l); kw K_SEMI ";"]
  | SIf c th el => kw K_IF "if" :: kw K_LPAREN "(" :: xt rp c ++ kw K_RPAREN ")" :: stoks th ++
                   match el with Some e => kw K_ELSE "else" :: stoks e | None => [] end
  | SWhile c b => kw K_WHILE "while" :: kw K_LPAREN "(" :: xt rp c ++ kw K_RPAREN ")" :: stoks b
  | SDo b c => kw K_DO "do" :: stoks b ++ kw K_WHILE "while" :: kw K_LPAREN "(" :: xt rp c ++ [kw K_RPAREN ")"; kw K_SEMI ";"]
  | SFor i c n b => kw K_FOR "for" :: kw K_LPAREN "(" :: oxt i ++ kw K_SEMI ";" :: oxt c ++ kw K_SEMI ";" :: oxt n ++ kw K_RPAREN ")" :: stoks b
  | SBlock items => kw K_LBRACE "{" :: concat (map stoks items) ++ [kw K_RBRACE "}"]
  | SLabel l b => (K_ID, l) :: kw K_COLON ":" :: stoks b
  | SDecl ty x i => dtoks ty x (match i with Some e => (K_EQUALS, s2l "=") :: argt rp e | None => [] end)
  end.
End STK.

(* which production p_statement picks, as a function of the first token's kind *)
Definition sclass (k: kind) : nat :=
  if okind_is (Some k) K_CASE || okind_is (Some k) K_DEFAULT then 0
  else if okind_is (Some k) K_LBRACE then 2
  else if okind_is (Some k) K_IF || okind_is (Some k) K_SWITCH then 3
  else if okind_is (Some k) K_WHILE || okind_is (Some k) K_DO || okind_is (Some k) K_FOR then 4
  else if okind_in (Some k) [K_GOTO; K_BREAK; K_CONTINUE; K_RETURN] then 5
  else if okind_is (Some k) K_PPPRAGMA || okind_is (Some k) K_uPRAGMA then 6
  else if okind_is (Some k) K_uSTATIC_ASSERT then 7
  else 8.


Section PS.
Variable P : Type.
Notation pstate := (ParserBase.pstate P).
Notation tok := (ParserBase.tok P).
Notation Up := (StreamLib.Up P).
Notation Spell := (RoundTrip.Spell P).
(* what is assumed of the parser state in front of a statement: nothing ([pre] trivially true, [dok] false: statements
   without declarations), or a scope stack without typedef names ([dok] true: blocks may declare objects) *)
Variable pre : pstate -> Prop.
Hypothesis pre_SC : forall s s', pre s -> SC P s s' -> pre s'.
Variable dok : bool.
Hypothesis pre_notd : dok = true -> forall s, pre s -> StreamLib.NoTD (scopes P s).
Ltac pre_tac := match goal with Hpre: pre ?s0 |- pre ?s1 => apply (pre_SC s0 s1 Hpre); cost_tac end.
Set Default Proof Using "P pre pre_SC".

Lemma stmt_eq : forall f,
  p_statement P (S f) =
  bind P (peek_kind P) (fun k =>
    if okind_is k K_CASE || okind_is k K_DEFAULT then p_labeled_statement P f
    else
    bind P (if okind_is k K_ID then bind P (peek_kind_k P 2) (fun k2 => ret P (okind_is k2 K_COLON)) else ret P false) (fun is_label =>
    if is_label then p_labeled_statement P f
    else if okind_is k K_LBRACE then p_compound_statement P f
    else if okind_is k K_IF || okind_is k K_SWITCH then p_selection_statement P f
    else if okind_is k K_WHILE || okind_is k K_DO || okind_is k K_FOR then p_iteration_statement P f
    else if okind_in k [K_GOTO; K_BREAK; K_CONTINUE; K_RETURN] then p_jump_statement P f
    else if okind_is k K_PPPRAGMA || okind_is k K_uPRAGMA then p_pppragma_directive P f
    else if okind_is k K_uSTATIC_ASSERT then bind P (p_static_assert P f) (fun l => match l with x :: _ => ret P x | [] => crash P CK_Index end)
    else p_expression_statement P f)).
Proof using P. reflexivity. Qed.

Lemma pcs_eq : forall f,
  p_pragmacomp_or_statement P (S f) =
  bind P (peek_kind P) (fun k =>
    if okind_is k K_PPPRAGMA || okind_is k K_uPRAGMA then
      bind P (p_pppragma_directive_list P f) (fun pragmas => bind P (p_statement P f) (fun stmt =>
      match pragmas with
      | p0 :: _ => bind P (coordA P p0) (fun pc => ret P (mkN P C_Compound [VList (pragmas ++ [stmt])] pc))
      | [] => crash P CK_Index
      end))
    else p_statement P f).
Proof using P. reflexivity. Qed.
Lemma iter_eq : forall f,
  p_iteration_statement P (S f) =
  bind P (advance P) (fun t =>
    if kind_eqb (tk t) K_WHILE then
      bind P (expect P K_LPAREN) (fun _ => bind P (p_expression P f) (fun cond => bind P (expect P K_RPAREN) (fun _ =>
      bind P (p_pragmacomp_or_statement P f) (fun st => bind P (tcoord P t) (fun c => ret P (mkN P C_While [cond; st] c))))))
    else if kind_eqb (tk t) K_DO then
      bind P (p_pragmacomp_or_statement P f) (fun st => bind P (expect P K_WHILE) (fun _ => bind P (expect P K_LPAREN) (fun _ =>
      bind P (p_expression P f) (fun cond => bind P (expect P K_RPAREN) (fun _ => bind P (expect P K_SEMI) (fun _ =>
      bind P (tcoord P t) (fun c => ret P (mkN P C_DoWhile [cond; st] c))))))))
    else if kind_eqb (tk t) K_FOR then
      bind P (expect P K_LPAREN) (fun _ => bind P (starts_declaration P) (fun sd =>
      if sd then
        bind P (p_declaration P f) (fun decls => bind P (tcoord P t) (fun ic =>
        let init := mkN P C_DeclList [VList decls] ic in
        bind P (p_expression_opt P f) (fun cond => bind P (expect P K_SEMI) (fun _ => bind P (p_expression_opt P f) (fun nx =>
        bind P (expect P K_RPAREN) (fun _ => bind P (p_pragmacomp_or_statement P f) (fun st => bind P (tcoord P t) (fun c =>
        ret P (mkN P C_For [init; cond; nx; st] c)))))))))
      else
        bind P (p_expression_opt P f) (fun init => bind P (expect P K_SEMI) (fun _ => bind P (p_expression_opt P f) (fun cond =>
        bind P (expect P K_SEMI) (fun _ => bind P (p_expression_opt P f) (fun nx => bind P (expect P K_RPAREN) (fun _ =>
        bind P (p_pragmacomp_or_statement P f) (fun st => bind P (tcoord P t) (fun c => ret P (mkN P C_For [init; cond; nx; st] c)))))))))))
    else bind P (tok_coord P t) (fun c => fail P (L_coord P c) (s2l "Invalid iteration statement"))).
Proof using P. reflexivity. Qed.

Lemma jump_eq : forall f,
  p_jump_statement P (S f) =
  bind P (advance P) (fun t =>
    if kind_eqb (tk t) K_GOTO then
      bind P (expect P K_ID) (fun nt => bind P (expect P K_SEMI) (fun _ => bind P (tcoord P t) (fun c => ret P (mkN P C_Goto [VStr (tv nt)] c))))
    else if kind_eqb (tk t) K_BREAK then bind P (expect P K_SEMI) (fun _ => bind P (tcoord P t) (fun c => ret P (mkN P C_Break [] c)))
    else if kind_eqb (tk t) K_CONTINUE then bind P (expect P K_SEMI) (fun _ => bind P (tcoord P t) (fun c => ret P (mkN P C_Continue [] c)))
    else if kind_eqb (tk t) K_RETURN then
      bind P (accept P K_SEMI) (fun sm =>
      match sm with
      | Some _ => bind P (tcoord P t) (fun c => ret P (mkN P C_Return [VNone] c))
      | None => bind P (p_expression P f) (fun e => bind P (expect P K_SEMI) (fun _ => bind P (tcoord P t) (fun c => ret P (mkN P C_Return [e] c))))
      end)
    else bind P (tok_coord P t) (fun c => fail P (L_coord P c) (s2l "Invalid jump statement"))).
Proof using P. reflexivity. Qed.

Lemma exprstmt_eq : forall f,
  p_expression_statement P (S f) =
  bind P (p_expression_opt P f) (fun e => bind P (expect P K_SEMI) (fun sm =>
  match e with
  | VNone => bind P (tcoord P sm) (fun c => ret P (mkN P C_EmptyStatement [] c))
  | _ => ret P e
  end)).
Proof using P. reflexivity. Qed.

Lemma expropt_eq : forall f, p_expression_opt P (S f) =
  bind P (starts_expression P) (fun se => if se then p_expression P f else ret P VNone).
Proof using P. reflexivity. Qed.

Definition sestart (k: kind) : bool := kind_in k tbl_STARTS_EXPRESSION.

Definition StmtL (run: nat -> M P (ParserBase.node P)) (kvs: list (kind * str)) (X: value unit) (op: bool) : Prop :=
  forall (s: pstate) le (stop: tok) l0, Spell le kvs -> Up s (le ++ stop :: l0) -> (op = true -> kind_eqb (tk stop) K_ELSE = false) -> pre s ->
  exists f0 N s', (forall f, f0 <= f -> run f s = Ok (N, s')) /\ Up s' (stop :: l0) /\ strip N = X /\ Ran P s s' (length le).
Definition StmtS := StmtL (p_pragmacomp_or_statement P).     (* a sub-statement position *)
Definition StmtS0 := StmtL (p_statement P).                   (* a block item *)

(* the statement level is a run over its token sequence (Triple.Tr): the two are convertible *)
Notation pr := (Build_stpre P pre pre_SC).
Lemma StmtL_Tr : forall run kvs X op, StmtL run kvs X op <-> Tr P pr run kvs (fun k => op = true -> kind_eqb k K_ELSE = false) (fun N => strip N = X).
Proof using P pre pre_SC. intros run kvs X op. split; intros H; exact H. Qed.

(* a statement that does not start with an identifier: the production [sclass] selects
   (there is no class 1: `name :` is told from an expression by the second token, see [label_start] and [Tr_stmt_expr]) *)
Lemma Tr_stmt_kw : forall k0 v kvs nx (Q: ParserBase.node P -> Prop), kind_eqb k0 K_ID = false ->
  Tr P pr (fun f => match sclass k0 with
                    | 0 => p_labeled_statement P f | 2 => p_compound_statement P f | 3 => p_selection_statement P f
                    | 4 => p_iteration_statement P f | 5 => p_jump_statement P f | 6 => p_pppragma_directive P f
                    | 7 => bind P (p_static_assert P f) (fun l => match l with x :: _ => ret P x | [] => crash P CK_Index end)
                    | _ => p_expression_statement P f end) ((k0, v) :: kvs) nx Q ->
  Tr P pr (p_statement P) ((k0, v) :: kvs) nx Q.
Proof.
  intros k0 v kvs nx Q Hid H. eapply Tr_S; [apply stmt_eq|]. tr_look (Tr_peek_kind _ _ (fun k => k = k0)) as r [k [-> ->]]; [reflexivity|].
  unfold sclass in H. cbn [okind_is] in *. rewrite Hid.
  (* both sides are the same cascade of tests on k0: decide them one by one *)
  repeat match type of H with context [if ?c then _ else _] => destruct c; [exact H|] end. exact H.
Qed.

(* what the first tokens of an expression statement must look like *)
Definition estart (k: kind) : bool :=
  Nat.eqb (sclass k) 8 && sestart k && negb (okind_is (Some k) K_PPPRAGMA || okind_is (Some k) K_uPRAGMA).
Definition good2 (kvs: list (kind * str)) : Prop :=
  exists k v rest, kvs = (k, v) :: rest /\ estart k = true /\
    (kind_eqb k K_ID = true -> exists k2 v2 r2, rest = (k2, v2) :: r2 /\ kind_eqb k2 K_COLON = false).
Lemma estart_facts : forall k, estart k = true -> sclass k = 8 /\ sestart k = true.
Proof using.
  intros k H. unfold estart in H. apply andb_true_iff in H. destruct H as [H _]. apply andb_true_iff in H. destruct H as [H1 H2].
  split; [exact (proj1 (Nat.eqb_eq _ _) H1)|exact H2].
Qed.

(* an expression statement: if it starts with an identifier, the label look-ahead finds no colon *)
Lemma Tr_stmt_expr : forall kvs nx (Q: ParserBase.node P -> Prop), good2 kvs ->
  Tr P pr (p_expression_statement P) kvs nx Q -> Tr P pr (p_statement P) kvs nx Q.
Proof.
  intros kvs nx Q [k [v [rest [-> [Hes Hid]]]]] H. destruct (kind_eqb k K_ID) eqn:Eid.
  - destruct (Hid eq_refl) as [k2 [v2 [r2 [-> Hk2]]]]. apply kind_eqb_eq in Eid. subst k. intros s le t l0 HS HU Hn Hp.
    destruct (Spell_cons_inv P _ _ _ _ HS) as [x [l1 [-> [Hkx [_ HS1]]]]]. destruct (Spell_cons_inv P _ _ _ _ HS1) as [x2 [l2 [-> [Hk2' _]]]].
    destruct (peek_kind_up P s x _ HU) as [s1 [H1 [HU1 HC1]]]. destruct (peek2_up P s1 x x2 _ HU1) as [s2 [H2 [HU2 HC2]]].
    eapply Ev_S; [apply stmt_eq|]. eapply Ev_step; [exact H1|]. rewrite Hkx. cbv beta.
    apply Ev_bind. eapply Ev_step; [exact H2|]. apply Ev_ret. cbn [okind_is]. rewrite Hk2', Hk2.
    assert (Hp2: pr s2) by (apply (pre_SC s s2 Hp); cost_tac).
    apply (Ev_mono _ _ _ _ _ _ (H s2 _ t l0 HS HU2 Hn Hp2)). intros a s' (HU' & HQ & HR). split; [exact HU'|split; [exact HQ|cost_tac]].
  - apply Tr_stmt_kw; [exact Eid|]. rewrite (proj1 (estart_facts k Hes)). exact H.
Qed.

(* an optional expression: present (the next token starts an expression) or absent (it does not) *)
Definition OptOK (kx: list (kind * str)) (X: value unit) : Prop :=
  (kx = [] /\ X = VNone) \/
  (exists c fs co, X = VNode c fs co) /\ ExprS P kx X /\ (exists k v rest, kx = (k, v) :: rest /\ sestart k = true).
Lemma opt_Tr : forall (p0: stpre P) kx X, OptOK kx X ->
  Tr P p0 (p_expression_opt P) kx (fun k => estop k = true /\ sestart k = false) (fun N => strip N = X).
Proof using P.
  intros p0 kx X [[-> ->]|[_ [HE [k [v [rest [-> Hk]]]]]]]; (eapply Tr_S; [apply expropt_eq|]).
  - tr_look (Tr_starts _ _ tbl_STARTS_EXPRESSION _) as r [k [-> Hk]]; [exact (fun _ H => H)|]. unfold sestart in Hk. rewrite (proj2 Hk). apply Tr_ret. reflexivity.
  - tr_look (Tr_starts _ _ tbl_STARTS_EXPRESSION (fun k' => k' = k)) as r [k' [-> ->]]; [reflexivity|]. unfold sestart in Hk. rewrite Hk.
    exact (Tr_mono _ _ _ _ _ _ _ _ _ (LevelS_Tr _ _ _ _ _ _ HE) (fun _ H => proj1 H) (fun _ H => H)).
Qed.
Lemma opt_run : forall kx X, OptOK kx X ->
  forall (s: pstate) le (stop: tok) l0, Spell le kx -> Up s (le ++ stop :: l0) -> estop (tk stop) = true -> sestart (tk stop) = false ->
  exists f0 N s', (forall f, f0 <= f -> p_expression_opt P f s = Ok (N, s')) /\ Up s' (stop :: l0) /\ strip N = X /\ Ran P s s' (length le).
Proof using P pre pre_SC dok pre_notd. intros kx X H s le stop l0 HS HU H1 H2. exact (opt_Tr (anyst P) kx X H s le stop l0 HS HU (conj H1 H2) I). Qed.

Lemma s_expr : forall kx X, OptOK kx X -> good2 (kx ++ [kw K_SEMI ";"]) -> StmtS0 (kx ++ [kw K_SEMI ";"]) X false.
Proof.
  intros kx X HO Hg. apply StmtL_Tr. apply (Tr_stmt_expr _ _ _ Hg). eapply Tr_S; [apply exprstmt_eq|].
  tr_run (opt_Tr pr kx X HO) as N HN; [split; reflexivity|]. tr_tok Tr_expect as sm _. destruct HO as [[-> _]|[[c [fs [co EX]]] _]].
  - destruct Hg as [k [v [r [E [Hes _]]]]]. injection E as <- _ _. discriminate Hes.    (* `;` alone does not start an expression *)
  - destruct (strip_node_inv _ _ _ _ _ (eq_trans HN EX)) as [fs' [co' ->]]. apply Tr_ret. exact HN.
Qed.
Lemma s_empty : StmtS0 [kw K_SEMI ";"] (VNode C_EmptyStatement [] None) false.
Proof.
  apply StmtL_Tr. apply Tr_stmt_kw; [reflexivity|]. eapply Tr_S; [apply exprstmt_eq|].
  eapply (Tr_bind P pr _ _ _ _ []); [exact (opt_Tr pr [] VNone (or_introl (conj eq_refl eq_refl)))|split; reflexivity|intros N HN; cbv beta].
  destruct N; try discriminate HN. tr_tok Tr_expect as sm _. apply Tr_mkN. reflexivity.
Qed.

Lemma s_break : StmtS0 [kw K_BREAK "break"; kw K_SEMI ";"] (VNode C_Break [] None) false.
Proof.
  apply StmtL_Tr. apply Tr_stmt_kw; [reflexivity|]. eapply Tr_S; [apply jump_eq|].
  tr_tok Tr_advance as t [Hk _]. rewrite Hk. kred. tr_tok Tr_expect as ? _. apply Tr_mkN. reflexivity.
Qed.
Lemma s_continue : StmtS0 [kw K_CONTINUE "continue"; kw K_SEMI ";"] (VNode C_Continue [] None) false.
Proof.
  apply StmtL_Tr. apply Tr_stmt_kw; [reflexivity|]. eapply Tr_S; [apply jump_eq|].
  tr_tok Tr_advance as t [Hk _]. rewrite Hk. kred. tr_tok Tr_expect as ? _. apply Tr_mkN. reflexivity.
Qed.
Lemma s_goto : forall l, StmtS0 [kw K_GOTO "goto"; (K_ID, l); kw K_SEMI ";"] (VNode C_Goto [VStr l] None) false.
Proof.
  intros l. apply StmtL_Tr. apply Tr_stmt_kw; [reflexivity|]. eapply Tr_S; [apply jump_eq|].
  tr_tok Tr_advance as t [Hk _]. rewrite Hk. kred. tr_tok Tr_expect as nt [_ Hv]. tr_tok Tr_expect as ? _. apply Tr_mkN. rewrite Hv. reflexivity.
Qed.
Lemma sestart_facts : forall k, sestart k = true -> kind_eqb k K_SEMI = false /\ kind_in k tbl_DECL_START = false.
Proof using. intros k H. destruct k; vm_compute in H; try discriminate H; split; reflexivity. Qed.
Lemma s_return : forall kx X, OptOK kx X -> StmtS0 (kw K_RETURN "return" :: kx ++ [kw K_SEMI ";"]) (VNode C_Return [X] None) false.
Proof.
  intros kx X HO. apply StmtL_Tr. apply Tr_stmt_kw; [reflexivity|]. eapply Tr_S; [apply jump_eq|].
  tr_tok Tr_advance as t [Hk _]. rewrite Hk. kred. destruct HO as [[-> ->]|[_ [HE [k [v [rest [-> Hk0]]]]]]].
  - tr_tok Tr_accept_hit as ? [sm [-> _]]. apply Tr_mkN. reflexivity.
  - tr_look Tr_accept_miss as ? ->; [exact (proj1 (sestart_facts k Hk0))|].    (* the first token of the expression is not `;` *)
    tr_run (LevelS_Tr _ _ _ _ _ _ HE) as N HN; [reflexivity|]. tr_tok Tr_expect as ? _. apply Tr_mkN. cbn [map]. rewrite HN. reflexivity.
Qed.

Lemma Tr_paren : forall kc Xc B (g: nat -> ParserBase.node P -> M P B) k2 n2 (Q: B -> Prop), ExprS P kc Xc ->
  (forall N, strip N = Xc -> Tr P pr (fun f => g f N) k2 n2 Q) ->
  Tr P pr (fun f => bind P (expect P K_LPAREN) (fun _ => bind P (p_expression P f) (fun c => bind P (expect P K_RPAREN) (fun _ => g f c))))
     (kw K_LPAREN "(" :: kc ++ kw K_RPAREN ")" :: k2) n2 Q.
Proof.
  intros kc Xc B g k2 n2 Q HE H. tr_tok Tr_expect as ? _. tr_run (LevelS_Tr _ _ _ _ _ _ HE) as N HN; [reflexivity|]. tr_tok Tr_expect as ? _. exact (H N HN).
Qed.

Lemma s_if : forall kc Xc kth Xth opth, ExprS P kc Xc -> StmtS kth Xth opth ->
  StmtS0 (kw K_IF "if" :: kw K_LPAREN "(" :: kc ++ kw K_RPAREN ")" :: kth) (VNode C_If [Xc; Xth; VNone] None) true.
Proof.
  intros kc Xc kth Xth opth HE HT. apply (proj1 (StmtL_Tr _ _ _ _)) in HT. apply StmtL_Tr. apply Tr_stmt_kw; [reflexivity|]. eapply Tr_S; [apply (sel_eq P)|].
  tr_tok Tr_advance as t [Hk _]. rewrite Hk. kred. apply (Tr_paren _ _ _ _ _ _ _ HE). intros Nc HNc.
  (* no `else` follows: none follows the then-branch *)
  eapply Tr_then; [eapply Tr_mono; [exact HT|exact (fun _ H _ => H eq_refl)|exact (fun _ H => H)]|intros Nth HNth; cbv beta].
  tr_look Tr_accept_miss as ? ->; [exact (fun _ H => H eq_refl)|]. apply Tr_mkN. cbn [map]. rewrite HNc, HNth. reflexivity.
Qed.

Lemma s_ifelse : forall kc Xc kth Xth kel Xel opel, ExprS P kc Xc -> StmtS kth Xth false -> StmtS kel Xel opel ->
  StmtS0 (kw K_IF "if" :: kw K_LPAREN "(" :: kc ++ kw K_RPAREN ")" :: kth ++ kw K_ELSE "else" :: kel) (VNode C_If [Xc; Xth; Xel] None) opel.
Proof.
  intros kc Xc kth Xth kel Xel opel HE HT HL. apply StmtL_Tr. apply Tr_stmt_kw; [reflexivity|]. eapply Tr_S; [apply (sel_eq P)|].
  tr_tok Tr_advance as t [Hk _]. rewrite Hk. kred. apply (Tr_paren _ _ _ _ _ _ _ HE). intros Nc HNc.
  tr_run (proj1 (StmtL_Tr _ _ _ _) HT) as Nth HNth; [discriminate|]. tr_tok Tr_accept_hit as ? [el [-> _]].
  eapply Tr_then; [exact (proj1 (StmtL_Tr _ _ _ _) HL)|intros Nel HNel; cbv beta]. apply Tr_mkN. cbn [map]. rewrite HNc, HNth, HNel. reflexivity.
Qed.

Lemma s_while : forall kc Xc kb Xb opb, ExprS P kc Xc -> StmtS kb Xb opb ->
  StmtS0 (kw K_WHILE "while" :: kw K_LPAREN "(" :: kc ++ kw K_RPAREN ")" :: kb) (VNode C_While [Xc; Xb] None) opb.
Proof.
  intros kc Xc kb Xb opb HE HB. apply StmtL_Tr. apply Tr_stmt_kw; [reflexivity|]. eapply Tr_S; [apply iter_eq|].
  tr_tok Tr_advance as t [Hk _]. rewrite Hk. kred. apply (Tr_paren _ _ _ _ _ _ _ HE). intros Nc HNc.
  eapply Tr_then; [exact (proj1 (StmtL_Tr _ _ _ _) HB)|intros Nb HNb; cbv beta]. apply Tr_mkN. cbn [map]. rewrite HNc, HNb. reflexivity.
Qed.

Lemma s_do : forall kc Xc kb Xb opb, ExprS P kc Xc -> StmtS kb Xb opb ->
  StmtS0 (kw K_DO "do" :: kb ++ kw K_WHILE "while" :: kw K_LPAREN "(" :: kc ++ [kw K_RPAREN ")"; kw K_SEMI ";"]) (VNode C_DoWhile [Xc; Xb] None) false.
Proof.
  intros kc Xc kb Xb opb HE HB. apply StmtL_Tr. apply Tr_stmt_kw; [reflexivity|]. eapply Tr_S; [apply iter_eq|].
  tr_tok Tr_advance as t [Hk _]. rewrite Hk. kred.
  tr_run (proj1 (StmtL_Tr _ _ _ _) HB) as Nb HNb; [intros _; reflexivity|].   (* the next token is `while`, not `else` *)
  tr_tok Tr_expect as ? _. apply (Tr_paren _ _ _ _ _ _ _ HE). intros Nc HNc.
  tr_tok Tr_expect as ? _. apply Tr_mkN. cbn [map]. rewrite HNc, HNb. reflexivity.
Qed.

(* what the token in front of an optional clause sees: the first token of the clause or, if that is absent, the token after it *)
Lemma opt_nexts : forall kx X y r n2 (Q: kind -> Prop), OptOK kx X -> Q (fst y) -> (forall k, sestart k = true -> Q k) -> nexts (kx ++ y :: r) n2 Q.
Proof using P. intros kx X [k v] r n2 Q [[-> _]|[_ [_ [k' [v' [r' [-> Hk]]]]]]] H1 H2; [exact H1|exact (H2 k' Hk)]. Qed.

Lemma s_for : forall ki Xi kc Xc kn Xn kb Xb opb, OptOK ki Xi -> OptOK kc Xc -> OptOK kn Xn -> StmtS kb Xb opb ->
  StmtS0 (kw K_FOR "for" :: kw K_LPAREN "(" :: ki ++ kw K_SEMI ";" :: kc ++ kw K_SEMI ";" :: kn ++ kw K_RPAREN ")" :: kb)
        (VNode C_For [Xi; Xc; Xn; Xb] None) opb.
Proof.
  intros ki Xi kc Xc kn Xn kb Xb opb Hi Hc Hn HB. apply StmtL_Tr. apply Tr_stmt_kw; [reflexivity|]. eapply Tr_S; [apply iter_eq|].
  tr_tok Tr_advance as t [Hk _]. rewrite Hk. kred. tr_tok Tr_expect as ? _.
  (* the token after `(` does not start a declaration *)
  tr_look (Tr_starts _ _ tbl_DECL_START (fun k => kind_in k tbl_DECL_START = false)) as sd [k [-> Hk']]; [apply (opt_nexts _ _ _ _ _ _ Hi); [reflexivity|exact (fun k H => proj2 (sestart_facts k H))]|].
  rewrite Hk'.
  tr_run (opt_Tr pr ki Xi Hi) as Ni HNi; [split; reflexivity|]. tr_tok Tr_expect as ? _.
  tr_run (opt_Tr pr kc Xc Hc) as Nc HNc; [split; reflexivity|]. tr_tok Tr_expect as ? _.
  tr_run (opt_Tr pr kn Xn Hn) as Nn HNn; [split; reflexivity|]. tr_tok Tr_expect as ? _.
  eapply Tr_then; [exact (proj1 (StmtL_Tr _ _ _ _) HB)|intros Nb HNb; cbv beta]. apply Tr_mkN. cbn [map]. rewrite HNi, HNc, HNn, HNb. reflexivity.
Qed.
Definition ssk (k: kind) : bool := kind_in k tbl_STARTS_STATEMENT || kind_in k tbl_STARTS_EXPRESSION.
Definition sshead (kvs: list (kind * str)) : Prop := exists k v rest, kvs = (k, v) :: rest /\ ssk k = true.

Lemma label_start : forall (s: pstate) t c l, Up s (t :: c :: l) -> tk t = K_ID -> tk c = K_COLON ->
  exists s5, Up s5 l /\ Ran P s s5 2 /\ forall f, p_statement P (S (S f)) s =
    bind P (StmtShape.lbody P f t) (fun stmt => bind P (tcoord P t) (fun cd => ret P (mkN P C_Label [VStr (tv t); stmt] cd))) s5.
Proof using P pre pre_SC dok pre_notd.
  intros s t c l HU Hk Hc.
  destruct (peek_kind_up P s t _ HU) as [s1 [H1 [HU1 HC1]]].
  destruct (peek2_up P s1 t c l HU1) as [s2 [H2 [HU2 HC2]]].
  destruct (peek_kind_up P s2 t _ HU2) as [s3 [H3 [HU3 HC3]]].
  destruct (advance_up P s3 t _ HU3) as [s4 [H4 [HU4 HC4]]].
  assert (Hck: kind_eqb (tk c) K_COLON = true) by (rewrite Hc; reflexivity).
  destruct (expect_up P s4 c _ K_COLON HU4 Hck) as [s5 [H5 [HU5 HC5]]].
  exists s5. split; [exact HU5|]. split; [cost_tac|]. intros f.
  rewrite stmt_eq. unfold bind at 1. rewrite H1, Hk. cbn [okind_is]. kred. cbn [orb].
  unfold bind at 1. unfold bind at 1. rewrite H2. unfold ret at 1. cbn [okind_is]. rewrite Hc. kred.
  rewrite (StmtShape.labeled_eq P). unfold bind at 1. rewrite H3, Hk. cbn [okind_is]. kred.
  unfold bind at 1. rewrite H4. unfold bind at 1. rewrite H5. reflexivity.
Qed.

Lemma Tr_starts_statement : forall k, Tr P pr (fun _ => starts_statement P) [] (fun k' => k' = k) (fun r => r = ssk k).
Proof.
  intros k. unfold starts_statement, ssk. tr_look (Tr_peek_kind _ _ (fun k' => k' = k)) as r [k' [-> ->]]; [exact (fun _ H => H)|].
  destruct (kind_in k tbl_STARTS_STATEMENT); [apply Tr_ret; reflexivity|].
  eapply Tr_mono; [exact (Tr_starts _ _ tbl_STARTS_EXPRESSION (fun k' => k' = k))|exact (fun _ H => H)|intros r [k' [-> ->]]; reflexivity].
Qed.

Lemma lbody_run : forall kb Xb opb, StmtS kb Xb opb -> sshead kb ->
  forall (t: tok) (s: pstate) le (stop: tok) l0, Spell le kb -> Up s (le ++ stop :: l0) -> (opb = true -> kind_eqb (tk stop) K_ELSE = false) -> pre s ->
  exists f0 N s', (forall f, f0 <= f -> StmtShape.lbody P f t s = Ok (N, s')) /\ Up s' (stop :: l0) /\ strip N = Xb /\ Ran P s s' (length le).
Proof using P pre pre_SC dok pre_notd.
  intros kb Xb opb HB [k [v [rest [-> Hss]]]] t. apply (proj2 (StmtL_Tr (fun f => StmtShape.lbody P f t) _ _ _)). unfold StmtShape.lbody.
  tr_look (Tr_starts_statement k) as ss ->; [reflexivity|]. rewrite Hss. exact (proj1 (StmtL_Tr _ _ _ _) HB).
Qed.

Lemma s_label : forall lb kb Xb opb, StmtS kb Xb opb -> sshead kb ->
  StmtS0 ((K_ID, lb) :: kw K_COLON ":" :: kb) (VNode C_Label [VStr lb; Xb] None) opb.
Proof using P pre pre_SC dok pre_notd.
  intros lb kb Xb opb HB Hh s le stop l0 HS HU Hop Hpre.
  destruct (Spell_cons_inv P _ _ _ _ HS) as [t [l1 [-> [Hk [Hv HS1]]]]]. destruct (Spell_cons_inv P _ _ _ _ HS1) as [c [l2 [-> [Hc [_ HS2]]]]].
  destruct (label_start s t c _ HU Hk Hc) as [s3 [HU3 [HC3 Hd]]].
  apply (Ev_shift P _ _ (fun f => bind P (StmtShape.lbody P f t) (fun stmt => bind P (tcoord P t) (fun cd => ret P (mkN P C_Label [VStr (tv t); stmt] cd)))) 2 0 _ _ _ Hd).
  apply Ev_bind. apply (Ev_mono _ _ _ _ _ _ (lbody_run kb Xb opb HB Hh t s3 l2 stop l0 HS2 HU3 Hop ltac:(pre_tac))). intros N s4 (HU4 & HN & HL4).
  eapply Ev_step; [apply (tcoord_eq P)|]. apply Ev_ret.
  split; [exact HU4|split; [unfold mkN; cbn [strip map]; rewrite Hv, HN; reflexivity|cost_tac]].
Qed.

Lemma blk_eq : forall f,
  p_block_item_list P (S f) =
  bind P (peek_kind P) (fun k =>
    match k with
    | None => ret P []
    | Some k' =>
      if kind_eqb k' K_RBRACE then ret P []
      else bind P (starts_declaration P) (fun sd =>
           bind P (if sd then p_declaration P f else bind P (p_statement P f) (fun s0 => ret P (stmt_to_items P s0))) (fun items =>
           bind P (p_block_item_list P f) (fun rest => ret P (items ++ rest))))
    end).
Proof using P. reflexivity. Qed.

Definition sstart (k: kind) : bool :=
  negb (okind_is (Some k) K_PPPRAGMA || okind_is (Some k) K_uPRAGMA) && negb (kind_eqb k K_RBRACE) &&
  negb (kind_in k tbl_DECL_START) && negb (kind_eqb k K_ELSE).
Definition shead (kvs: list (kind * str)) : Prop := exists k v rest, kvs = (k, v) :: rest /\ sstart k = true.
Lemma sstart_facts : forall k, sstart k = true ->
  (okind_is (Some k) K_PPPRAGMA || okind_is (Some k) K_uPRAGMA) = false /\ kind_eqb k K_RBRACE = false /\
  kind_in k tbl_DECL_START = false /\ kind_eqb k K_ELSE = false.
Proof using.
  intros k H. unfold sstart in H. do 3 (apply andb_true_iff in H; destruct H as [H ?]).
  repeat match goal with X: negb _ = true |- _ => apply negb_true_iff in X end. repeat split; assumption.
Qed.

(* a sub-statement position: no pragma in front *)
Lemma s0_to_s : forall kvs X op, shead kvs -> StmtS0 kvs X op -> StmtS kvs X op.
Proof.
  intros kvs X op [k [v [rest [-> Hs]]]] H0. apply StmtL_Tr. eapply Tr_S; [apply pcs_eq|].
  tr_look (Tr_peek_kind _ _ (fun k' => k' = k)) as r [k' [-> ->]]; [reflexivity|]. rewrite (proj1 (sstart_facts k Hs)). exact H0.
Qed.

Definition DeclS (kvs: list (kind * str)) (X: value unit) : Prop :=
  forall (s: pstate) le (stop: tok) l0, Spell le kvs -> Up s (le ++ stop :: l0) -> StreamLib.NoTD (scopes P s) ->
  exists f0 Ns s', (forall f, f0 <= f -> p_declaration P f s = Ok (Ns, s')) /\ Up s' (stop :: l0) /\
    map (@strip (coord P)) Ns = [X] /\ Ran P s s' (length le).
Definition dhead (kvs: list (kind * str)) : Prop := exists k v rest, kvs = (k, v) :: rest /\ kind_in k tbl_DECL_START = true.

Definition item_ok (it: list (kind * str) * value unit * bool) : Prop :=
  let '(kvs, X, op) := it in
  (StmtS0 kvs X op /\ shead kvs /\ exists c fs co, X = VNode c fs co) \/ (dok = true /\ DeclS kvs X /\ dhead kvs).

Lemma item_first : forall it, item_ok it -> exists k v rest, fst (fst it) = (k, v) :: rest /\ kind_eqb k K_RBRACE = false /\ kind_eqb k K_ELSE = false.
Proof.
  intros [[kvs X] op] [[_ [[k [v [rest [Ek Hsk]]]] _]]|[_ [_ [k [v [rest [Ek Hd]]]]]]]; exists k, v, rest; cbn [fst]; (split; [exact Ek|]).
  - destruct (sstart_facts k Hsk) as (_ & H1 & _ & H2). split; assumption.
  - exact (proj2 (decl_start_facts k Hd)).
Qed.

Lemma DeclS_Tr : forall kvs X, dok = true -> DeclS kvs X -> Tr P pr (p_declaration P) kvs (fun _ => True) (fun Ns => map (@strip (coord P)) Ns = [X]).
Proof using P pre pre_SC dok pre_notd. intros kvs X Hd H s le t l0 HS HU _ Hp. exact (H s le t l0 HS HU (pre_notd Hd s Hp)). Qed.

(* the token after a block item: the first token of the next item, or the closing brace *)
Lemma items_nexts : forall items (Q: kind -> Prop), Forall item_ok items -> Q K_RBRACE ->
  (forall k, kind_eqb k K_RBRACE = false -> kind_eqb k K_ELSE = false -> Q k) -> nexts (concat (map (fun it => fst (fst it)) items)) (fun k => k = K_RBRACE) Q.
Proof.
  intros items Q HF H1 H2. destruct items as [|it items']; [intros k ->; exact H1|]. destruct (item_first it (Forall_inv HF)) as [k [v [rest [E [Ha Hb]]]]].
  cbn [map concat]. rewrite E. exact (H2 k Ha Hb).
Qed.

Lemma blk_Tr : forall items, Forall item_ok items ->
  Tr P pr (p_block_item_list P) (concat (map (fun it => fst (fst it)) items)) (fun k => k = K_RBRACE) (fun Ns => map strip Ns = map (fun it => snd (fst it)) items).
Proof using P pre pre_SC dok pre_notd.
  induction items as [|[[kvs X] op] items IH]; intros HF; (eapply Tr_S; [apply blk_eq|]).
  - tr_look (Tr_peek_kind _ _ (fun k => k = K_RBRACE)) as r [k [-> ->]]; [exact (fun _ H => H)|]. apply Tr_ret. reflexivity.
  - pose proof (Forall_inv HF) as Hit. apply Forall_inv_tail in HF. destruct (item_first _ Hit) as [k [v [rest [E [Hnrb _]]]]]. cbn [fst] in E. subst kvs. cbn [map concat fst snd].
    tr_look (Tr_peek_kind _ _ (fun k' => k' = k)) as r [k' [-> ->]]; [reflexivity|]. rewrite Hnrb.
    tr_look (Tr_starts _ _ tbl_DECL_START (fun k' => k' = k)) as sd [k' [-> ->]]; [reflexivity|].
    destruct Hit as [[H0 [[k' [v' [r' [E Hsk]]]] [c [fs [co EX]]]]]|[Hdok [HD [k' [v' [r' [E Hdk]]]]]]]; injection E as <- _ _.
    + rewrite (proj1 (proj2 (proj2 (sstart_facts k Hsk)))).
      eapply (Tr_bind P pr _ _ _ _ _ _ _ _ (fun it => map strip it = [X])); [eapply Tr_then; [exact (proj1 (StmtL_Tr _ _ _ _) H0)|intros N HN; cbv beta]| |intros it Hit; cbv beta].
      * destruct (strip_node_inv _ _ _ _ _ (eq_trans HN EX)) as [fs' [co' ->]]. apply Tr_ret. exact (f_equal (fun x => [x]) HN).
      * apply (items_nexts items _ HF); [intros _; reflexivity|exact (fun _ _ H _ => H)].
      * eapply Tr_then; [exact (IH HF)|intros Ns HNs; apply Tr_ret]. rewrite map_app. exact (f_equal2 (@app _) Hit HNs).
    + rewrite Hdk. tr_run (DeclS_Tr _ _ Hdok HD) as it Hit; [apply nexts_True|].
      eapply Tr_then; [exact (IH HF)|intros Ns HNs; apply Tr_ret]. rewrite map_app. exact (f_equal2 (@app _) Hit HNs).
Qed.
Lemma blk_run : forall items, Forall item_ok items ->
  forall (s: pstate) le (rb: tok) rest, Spell le (concat (map (fun it => fst (fst it)) items)) -> Up s (le ++ rb :: rest) -> tk rb = K_RBRACE -> pre s ->
  exists f0 Ns s', (forall f, f0 <= f -> p_block_item_list P f s = Ok (Ns, s')) /\ Up s' (rb :: rest) /\ map strip Ns = map (fun it => snd (fst it)) items /\ Ran P s s' (length le).
Proof using P pre pre_SC dok pre_notd. exact blk_Tr. Qed.

(* the compound statement on its own (a function body): nothing is looked at behind the closing brace *)
Lemma compound_run : forall items, Forall item_ok items ->
  forall (s: pstate) (lb: tok) li (rb: tok) rest, tk lb = K_LBRACE -> Spell li (concat (map (fun it => fst (fst it)) items)) -> tk rb = K_RBRACE ->
  Up s (lb :: li ++ rb :: rest) -> pre s ->
  exists f0 N s', (forall f, f0 <= f -> p_compound_statement P f s = Ok (N, s')) /\ Up s' rest /\
    strip N = VNode C_Compound [match items with [] => VNone | _ => VList (map (fun it => snd (fst it)) items) end] None /\
    Ran P s s' (S (S (length li))).
Proof using P pre pre_SC dok pre_notd.
  intros items HF s lb li rb rest Hlk HSi Hrk HU Hpre.
  assert (Hrbk: kind_eqb (tk rb) K_RBRACE = true) by (rewrite Hrk; reflexivity).
  destruct (expect_up P s lb _ K_LBRACE HU ltac:(rewrite Hlk; reflexivity)) as [s2 [H2 [HU2 HC2]]].
  eapply Ev_S; [apply (compound_eq P)|]. eapply Ev_step; [exact H2|]. cbv beta.
  destruct items as [|it items'].
  - apply (Spell_nil_inv P) in HSi. subst li. destruct (accept_hit P s2 rb _ K_RBRACE HU2 Hrbk) as [s3 [H3 [HU3 HC3]]].
    eapply Ev_step; [exact H3|]. eapply Ev_step; [apply (tcoord_eq P)|]. apply Ev_ret. split; [exact HU3|split; [reflexivity|cost_tac]].
  - (* the first token of the first item is not `}` *)
    destruct (item_first it (Forall_inv HF)) as [k [v [r0 [E [Hnr _]]]]]. pose proof HSi as HSi'. cbn [map concat] in HSi'. rewrite E in HSi'.
    destruct (Spell_cons_inv P _ _ _ _ HSi') as [t [tl [-> [Hkt _]]]]. rewrite <- Hkt in Hnr.
    destruct (accept_miss P s2 t (tl ++ rb :: rest) K_RBRACE HU2 Hnr) as [s3 [H3 [HU3 HC3]]].
    eapply Ev_step; [exact H3|]. apply Ev_bind.
    apply (Ev_mono _ _ _ _ _ _ (blk_run _ HF s3 (t :: tl) rb rest HSi HU3 Hrk ltac:(pre_tac))). intros Ns s4 (HU4 & HNs & HL4).
    destruct (expect_up P s4 rb _ K_RBRACE HU4 Hrbk) as [s5 [H5 [HU5 HC5]]].
    eapply Ev_step; [exact H5|]. eapply Ev_step; [apply (tcoord_eq P)|]. apply Ev_ret.
    split; [exact HU5|split; [unfold mkN; cbn [strip map]; rewrite HNs; reflexivity|cost_tac]].
Qed.

Lemma s_block : forall items, Forall item_ok items ->
  StmtS0 (kw K_LBRACE "{" :: concat (map (fun it => fst (fst it)) items) ++ [kw K_RBRACE "}"])
         (VNode C_Compound [match items with [] => VNone | _ => VList (map (fun it => snd (fst it)) items) end] None) false.
Proof using P pre pre_SC dok pre_notd.
  intros items HF. apply StmtL_Tr. apply Tr_stmt_kw; [reflexivity|]. intros s le t l0 HS HU _ Hp.
  destruct (Spell_cons_inv P _ _ _ _ HS) as [lb [l1 [-> [Hlk [_ HS1]]]]]. destruct (Spell_app_inv P _ _ _ HS1) as [li [l2 [-> [HSi HS2]]]].
  destruct (Spell_one P _ _ _ HS2) as [rb [-> [Hrk _]]]. cbn [app] in HU. rewrite <- app_assoc in HU.
  apply (Ev_mono _ _ _ _ _ _ (compound_run items HF s lb li rb (t :: l0) Hlk HSi Hrk HU Hp)). intros N s' (HU' & HN & HR).
  split; [exact HU'|split; [exact HN|cost_tac]].
Qed.
End PS.
Unset Default Proof Using.

Lemma good2_app : forall x y, good2 x -> good2 (x ++ y).
Proof.
  intros x y [k [v [rest [-> [H1 H2]]]]]. exists k, v, (rest ++ y). split; [reflexivity|]. split; [exact H1|].
  intros E. destruct (H2 E) as [k2 [v2 [r2 [-> H3]]]]. exists k2, v2, (r2 ++ y). split; [reflexivity|exact H3].
Qed.
Lemma good2_parkv : forall x y, good2 (parkv x ++ y).
Proof. intros x y. unfold parkv. eexists; eexists; eexists. split; [reflexivity|]. split; [reflexivity|]. intros E; discriminate E. Qed.
Lemma good2_kw : forall k v y, estart k = true -> kind_eqb k K_ID = false -> good2 ((k, v) :: y).
Proof. intros k v y H1 H2. exists k, v, y. split; [reflexivity|]. split; [exact H1|]. intros E; congruence. Qed.

Lemma unop_start : forall k v y, kind_in k [K_AND; K_TIMES; K_PLUS; K_MINUS; K_NOT; K_LNOT] = true -> good2 ((k, v) :: y).
Proof. intros k v y H. apply good2_kw; destruct k; vm_compute in H; try discriminate H; reflexivity. Qed.
Lemma incdec_start : forall k, kind_eqb k K_PLUSPLUS || kind_eqb k K_MINUSMINUS = true -> (forall v y, good2 ((k, v) :: y)) /\ kind_eqb k K_COLON = false.
Proof. intros k H. split; [intros v y; apply good2_kw|]; destruct k; vm_compute in H; try discriminate H; reflexivity. Qed.
Lemma const_start : forall k v y, kind_in k tbl_INT_CONST || kind_in k tbl_FLOAT_CONST || kind_in k tbl_CHAR_CONST = true -> good2 ((k, v) :: y).
Proof. intros k v y H. apply good2_kw; destruct k; vm_compute in H; try discriminate H; reflexivity. Qed.
Lemma prec_ncolon : forall k p, prec_of k = Some p -> kind_eqb k K_COLON = false.
Proof. intros k p H. destruct k; vm_compute in H; try discriminate H; reflexivity. Qed.
Lemma mem_ncolon : forall k, kind_eqb k K_PERIOD || kind_eqb k K_ARROW = true -> kind_eqb k K_COLON = false.
Proof. intros k H. destruct k; vm_compute in H; try discriminate H; reflexivity. Qed.
Lemma asg_ncolon : forall k, kind_in k tbl_ASSIGNMENT_OPS = true -> kind_eqb k K_COLON = false.
Proof. intros k H. destruct k; vm_compute in H; try discriminate H; reflexivity. Qed.
Section HEAD.
Variable rp : bool.
Notation xt := (xt rp).

Lemma xt_head : forall n e, size e <= n -> wf e -> forall k v y, kind_eqb k K_COLON = false -> good2 (xt e ++ (k, v) :: y).
Proof.
  induction n as [|n IH]; intros e Hn Hw k0 v0 y Hy; [destruct e; cbn in Hn; lia|].
  assert (Hwrap: forall b, size b <= n -> wf b -> forall k v y', kind_eqb k K_COLON = false -> good2 (wrap b (xt b) ++ (k, v) :: y')).
  { intros b Hb Hwb k v y' Hk. unfold wrap. destruct (simple b); [apply IH; assumption|apply good2_parkv]. }
  destruct e as [a|k v ty|o l r|o x|o x|o x|x|b i|b ty fld|b args|c t f|o l r|es|ty x|ty]; cbn [size] in Hn; cbn [wf] in Hw; cbn [RoundTripX.xt];
    rewrite <- ?app_assoc; cbn [app].
  - exists K_ID, a, ((k0, v0) :: y). split; [reflexivity|]. split; [reflexivity|]. intros _. exists k0, v0, y. split; [reflexivity|exact Hy].
  - exact (const_start k _ _ (const_ok_kind _ _ _ Hw)).
  - destruct Hw as (Ho & Hl & Hr). pose proof (prec_ncolon _ _ (proj1 (opk_facts o Ho))) as Hc.
    destruct (keepLx rp o l); [apply IH; [lia|exact Hl|exact Hc]|apply Hwrap; [lia|exact Hl|exact Hc]].
  - exact (unop_start _ _ _ (ok_opk _ o (proj1 Hw))).
  - exact (proj1 (incdec_start _ (ok_opk _ o (proj1 Hw))) _ _).
  - apply Hwrap; [lia|exact (proj2 Hw)|exact (proj2 (incdec_start _ (ok_opk _ o (proj1 Hw))))].
  - apply good2_kw; reflexivity.
  - apply Hwrap; [lia|exact (proj1 Hw)|reflexivity].
  - apply Hwrap; [lia|exact (proj2 Hw)|exact (mem_ncolon _ (ok_opk _ ty (proj1 Hw)))].
  - apply Hwrap; [lia|exact (proj1 Hw)|reflexivity].
  - apply good2_parkv.
  - apply IH; [lia|exact (proj1 (proj2 (proj2 (proj2 Hw))))|exact (asg_ncolon _ (ok_opk _ o (proj1 Hw)))].
  - destruct Hw as (Hlen & Hes). destruct es as [|e1 [|e2 rest]]; cbn [length] in Hlen; try lia.
    cbn [map]. rewrite commas_cons. rewrite <- app_assoc. cbn [map concat]. cbn [app]. rewrite <- app_assoc. cbn [app].
    unfold vx at 1. destruct (iscomma e1); [apply good2_parkv|]. apply IH; [|exact (proj1 Hes)|reflexivity].
    change (list_sum (map size (e1 :: e2 :: rest))) with (size e1 + list_sum (map size (e2 :: rest))) in Hn. lia.
  - apply good2_kw; reflexivity.
  - apply good2_kw; reflexivity.
Qed.

Lemma xt_semi : forall e, wf e -> good2 (xt e ++ [kw K_SEMI ";"]).
Proof. intros e Hw. exact (xt_head (size e) e (le_n _) Hw K_SEMI _ [] eq_refl). Qed.

Lemma xt_sestart : forall e, wf e -> exists k v rest, xt e = (k, v) :: rest /\ sestart k = true.
Proof.
  intros e Hw. destruct (xt_semi e Hw) as [k [v [rest [Ek [Hes _]]]]].
  destruct (xt e) as [|[k0 v0] r0]; injection Ek as <- _ _; [discriminate (proj2 (estart_facts _ Hes))|].
  exists k0, v0, r0. split; [reflexivity|exact (proj2 (estart_facts _ Hes))].
Qed.
End HEAD.

Lemma estart_sstart : forall k, estart k = true -> sstart k = true.
Proof. intros k H. destruct k; vm_compute in H; try discriminate H; reflexivity. Qed.
Lemma estart_ssk : forall k, estart k = true -> ssk k = true.
Proof. intros k H. exact (eq_trans (f_equal (orb _) (proj2 (estart_facts k H))) (orb_true_r _)). Qed.


Section MainS.
Variable P : Type.
Variable rp : bool.
Variable pre : ParserBase.pstate P -> Prop.
Hypothesis pre_SC : forall s s', pre s -> SC P s s' -> pre s'.
Variable dok : bool.
Hypothesis pre_notd : dok = true -> forall s, pre s -> StreamLib.NoTD (scopes P s).

Lemma expr_ok : forall e, wf e -> ExprS P (xt rp e) (embx e).
Proof. intros e Hw. exact (T_expr P rp e (T_all P rp (size e) e (le_n _) Hw)). Qed.
Lemma opt_ok : forall o, owf o -> OptOK P (oxt rp o) (oemb o).
Proof. intros [e|] Hw; [right; split; [apply embx_node|split; [exact (expr_ok e Hw)|exact (xt_sestart rp e Hw)]]|left; split; reflexivity]. Qed.

(* the first token of a statement: it can stand at a sub-statement position, and can follow a label *)
Lemma stoks_heads : forall x, swfd dok x -> shead (stoks rp x) /\ sshead (stoks rp x).
Proof.
  intros x Hw. destruct x as [e| |o| | |l|c th el|c b|b c|i c nx b|items|lb b|ty dx di]; cbn [stoks];
    try (cbn [swfd] in Hw; contradiction);
    try (split; eexists; eexists; eexists; split; reflexivity).
  cbn [swfd] in Hw. destruct (xt_semi rp e Hw) as [k [v [rest [Ek [Hes _]]]]].
  split; exists k, v, rest; (split; [exact Ek|]); [exact (estart_sstart k Hes)|exact (estart_ssk k Hes)].
Qed.

Lemma embs_node : forall x, exists c fs co, embs x = VNode c fs co.
Proof. intros x. destruct x; cbn [embs]; try (eexists; eexists; eexists; reflexivity). apply embx_node. Qed.

Lemma owf_init : forall i, owf i -> InitOK P (match i with Some e => (K_EQUALS, s2l "=") :: argt rp e | None => [] end) (oemb i).
Proof using P rp.
  intros [e|] Hi; [|left; split; reflexivity]. right. pose proof (T_all P rp (size e) e (le_n _) Hi) as HT.
  exists (argt rp e). split; [reflexivity|]. split; [exact (T_asg_argt P rp e HT)|exact (T_first_argt P rp e HT)].
Qed.

Lemma decl_item : forall ty x i, dwf dok ty x i ->
  dok = true /\ DeclS P (stoks rp (SDecl ty x i)) (embs (SDecl ty x i)) /\ dhead (stoks rp (SDecl ty x i)).
Proof.
  intros ty x i (Hd & Hne & HF & Hi & _). split; [exact Hd|]. split.
  - cbn [stoks embs]. intros s le stop l0 HS HU HN.
    apply (decl_run P ty x (match i with Some e => (K_EQUALS, s2l "=") :: argt rp e | None => [] end) (oemb i) Hne HF); try assumption.
    exact (owf_init i Hi).
  - cbn [stoks]. unfold dtoks. destruct ty as [|[k v] ty']; [congruence|]. eexists; eexists; eexists. split; [reflexivity|].
    exact (proj2 (proj2 (proj2 (simple_kind_facts k (Forall_inv HF))))).
Qed.

Lemma items_ok : forall items, swfl dok items -> (forall y, In y items -> swfd dok y -> StmtS0 P pre (stoks rp y) (embs y) (sopen y)) ->
  Forall (item_ok P pre dok) (map (fun y => (stoks rp y, embs y, sopen y)) items).
Proof.
  intros items Hw HS. apply Forall_map, Forall_forall. intros y Hy. pose proof (all_in _ (bwfd dok) items y Hw Hy) as Hwy. unfold item_ok.
  destruct y as [e| |o| | |l|c th el|c b|b c|i c nx b|items2|lb b|ty dx di];
    try (left; split; [exact (HS _ Hy Hwy)|split; [exact (proj1 (stoks_heads _ Hwy))|apply embs_node]]).
  right. exact (decl_item ty dx di Hwy).
Qed.

Theorem S_all : forall n x, ssize x <= n -> swfd dok x -> StmtS0 P pre (stoks rp x) (embs x) (sopen x).
Proof.
  induction n as [|n IH]; intros x Hn Hw; [destruct x; cbn in Hn; lia|].
  assert (IHs: forall y, ssize y <= n -> swfd dok y -> StmtS P pre (stoks rp y) (embs y) (sopen y)).
  { intros y Hy Hwy. apply (s0_to_s P pre pre_SC); [exact (proj1 (stoks_heads y Hwy))|apply IH; assumption]. }
  destruct x as [e| |o| | |l|c th el|c b|b c|i c nx b|items|lb b|ty dx di]; cbn [ssize] in Hn; cbn [swfd] in Hw; cbn [stoks embs sopen].
  - apply (s_expr P pre pre_SC); [exact (opt_ok (Some e) Hw)|exact (xt_semi rp e Hw)].
  - apply (s_empty P pre pre_SC).
  - apply (s_return P pre pre_SC). apply opt_ok. exact Hw.
  - apply (s_break P pre pre_SC).
  - apply (s_continue P pre pre_SC).
  - apply (s_goto P pre pre_SC).
  - destruct Hw as (Hc & Hth & Hel). destruct el as [el|].
    + destruct Hel as (Hcl & Hwel). pose proof (IHs th ltac:(lia) Hth) as HT. rewrite Hcl in HT.
      apply (s_ifelse P pre pre_SC); [exact (expr_ok c Hc)|exact HT|apply IHs; [lia|exact Hwel]].
    + rewrite app_nil_r. eapply (s_if P pre pre_SC); [exact (expr_ok c Hc)|apply IHs; [lia|exact Hth]].
  - destruct Hw as (Hc & Hb). apply (s_while P pre pre_SC); [exact (expr_ok c Hc)|apply IHs; [lia|exact Hb]].
  - destruct Hw as (Hb & Hc). eapply (s_do P pre pre_SC); [exact (expr_ok c Hc)|apply IHs; [lia|exact Hb]].
  - destruct Hw as (Hi & Hc & Hnx & Hb). apply (s_for P pre pre_SC); [apply opt_ok; exact Hi|apply opt_ok; exact Hc|apply opt_ok; exact Hnx|apply IHs; [lia|exact Hb]].
  - (* block *)
    pose proof (s_block P pre pre_SC dok pre_notd _ (items_ok items Hw (fun y Hy Hwy => IH y ltac:(pose proof (in_list_sum _ ssize items y Hy); lia) Hwy))) as HB.
    rewrite !map_map in HB. cbn [fst snd] in HB. destruct items as [|y r]; exact HB.
  - (* label *)
    apply (s_label P pre pre_SC dok pre_notd); [apply IHs; [lia|exact Hw]|exact (proj2 (stoks_heads b Hw))].
  - contradiction.
Qed.

Lemma block_items_ok : forall items, swfl dok items ->
  Forall (item_ok P pre dok) (map (fun y => (stoks rp y, embs y, sopen y)) items).
Proof. intros items Hw. exact (items_ok items Hw (fun y _ Hwy => S_all _ _ (le_n _) Hwy)). Qed.
End MainS.

Section Thms.
Variable P : Type.
Variable rp : bool.

Lemma pre_true_notd : false = true -> forall s : ParserBase.pstate P, True -> StreamLib.NoTD (scopes P s).
Proof. intros H; discriminate H. Qed.
Lemma pre_notd_SC : forall s s' : ParserBase.pstate P, StreamLib.NoTD (scopes P s) -> SC P s s' -> StreamLib.NoTD (scopes P s').
Proof. exact (pre_ok P (notd P)). Qed.
Lemma pre_notd_notd : true = true -> forall s : ParserBase.pstate P, StreamLib.NoTD (scopes P s) -> StreamLib.NoTD (scopes P s).
Proof. intros _ s H. exact H. Qed.

(* parse . generate = id, token level: every statement, as a block item and in a sub-statement position - with the
   cost of the parse: exactly the generated tokens are consumed, next() is called at most three times per token *)
Theorem parse_of_generated_statement_cost : forall x, swf x ->
  forall (s: ParserBase.pstate P) le stop l0, RoundTrip.Spell P le (stoks rp x) -> StreamLib.Up P s (le ++ stop :: l0) ->
  (sopen x = true -> kind_eqb (tk stop) K_ELSE = false) ->
  exists f0 N s', (forall f, f0 <= f -> p_pragmacomp_or_statement P f s = Ok (N, s')) /\ StreamLib.Up P s' (stop :: l0) /\ strip N = embs x /\
    StreamLib.Ran P s s' (length le).
Proof.
  intros x Hw s le stop l0 HS HU Hop.
  exact (s0_to_s P (fun _ => True) (pre_ok P (anyst P)) _ _ _ (proj1 (stoks_heads rp false x Hw))
           (S_all P rp (fun _ => True) (pre_ok P (anyst P)) false pre_true_notd (ssize x) x (le_n _) Hw) s le stop l0 HS HU Hop I).
Qed.

Theorem parse_of_generated_block_item_cost : forall x, swf x ->
  forall (s: ParserBase.pstate P) le stop l0, RoundTrip.Spell P le (stoks rp x) -> StreamLib.Up P s (le ++ stop :: l0) ->
  (sopen x = true -> kind_eqb (tk stop) K_ELSE = false) ->
  exists f0 N s', (forall f, f0 <= f -> p_statement P f s = Ok (N, s')) /\ StreamLib.Up P s' (stop :: l0) /\ strip N = embs x /\
    StreamLib.Ran P s s' (length le).
Proof. intros x Hw s le stop l0 HS HU Hop. exact (S_all P rp (fun _ => True) (pre_ok P (anyst P)) false pre_true_notd (ssize x) x (le_n _) Hw s le stop l0 HS HU Hop I). Qed.

Theorem parse_of_generated_statement : forall x, swf x ->
  forall (s: ParserBase.pstate P) le stop l0, RoundTrip.Spell P le (stoks rp x) -> StreamLib.Up P s (le ++ stop :: l0) ->
  (sopen x = true -> kind_eqb (tk stop) K_ELSE = false) ->
  exists f0 N s', (forall f, f0 <= f -> p_pragmacomp_or_statement P f s = Ok (N, s')) /\ StreamLib.Up P s' (stop :: l0) /\ strip N = embs x.
Proof.
  intros x Hw s le stop l0 HS HU Hop. destruct (parse_of_generated_statement_cost x Hw s le stop l0 HS HU Hop) as [f0 [N [s' [H [HU' [HN _]]]]]].
  exists f0, N, s'. split; [exact H|split; [exact HU'|exact HN]].
Qed.

Theorem parse_of_generated_block_item : forall x, swf x ->
  forall (s: ParserBase.pstate P) le stop l0, RoundTrip.Spell P le (stoks rp x) -> StreamLib.Up P s (le ++ stop :: l0) ->
  (sopen x = true -> kind_eqb (tk stop) K_ELSE = false) ->
  exists f0 N s', (forall f, f0 <= f -> p_statement P f s = Ok (N, s')) /\ StreamLib.Up P s' (stop :: l0) /\ strip N = embs x.
Proof.
  intros x Hw s le stop l0 HS HU Hop. destruct (parse_of_generated_block_item_cost x Hw s le stop l0 HS HU Hop) as [f0 [N [s' [H [HU' [HN _]]]]]].
  exists f0, N, s'. split; [exact H|split; [exact HU'|exact HN]].
Qed.

(* ... and the same, as a block item, for statements whose blocks declare objects (`T x;`, `T x = e;`, at any depth), from
   every parser state whose scope stack holds no typedef name: the tree has one Decl per declaration in source order, the
   scope stack holds no typedef name afterwards either, and the cost bound is the same *)
Theorem parse_of_generated_statement_with_decls_cost : forall x, swfD x ->
  forall (s: ParserBase.pstate P) le stop l0, RoundTrip.Spell P le (stoks rp x) -> StreamLib.Up P s (le ++ stop :: l0) ->
  (sopen x = true -> kind_eqb (tk stop) K_ELSE = false) -> StreamLib.NoTD (scopes P s) ->
  exists f0 N s', (forall f, f0 <= f -> p_statement P f s = Ok (N, s')) /\ StreamLib.Up P s' (stop :: l0) /\ strip N = embs x /\
    StreamLib.Ran P s s' (length le).
Proof.
  intros x Hw s le stop l0 HS HU Hop HN.
  exact (S_all P rp (fun s => StreamLib.NoTD (scopes P s)) pre_notd_SC true pre_notd_notd (ssize x) x (le_n _) Hw s le stop l0 HS HU Hop HN).
Qed.
Theorem parse_of_generated_statement_with_decls : forall x, swfD x ->
  forall (s: ParserBase.pstate P) le stop l0, RoundTrip.Spell P le (stoks rp x) -> StreamLib.Up P s (le ++ stop :: l0) ->
  (sopen x = true -> kind_eqb (tk stop) K_ELSE = false) -> StreamLib.NoTD (scopes P s) ->
  exists f0 N s', (forall f, f0 <= f -> p_statement P f s = Ok (N, s')) /\ StreamLib.Up P s' (stop :: l0) /\ strip N = embs x /\
    StreamLib.NoTD (scopes P s').
Proof.
  intros x Hw s le stop l0 HS HU Hop HN. destruct (parse_of_generated_statement_with_decls_cost x Hw s le stop l0 HS HU Hop HN) as [f0 [N [s' [H [HU' [HN' [_ [_ Hsc]]]]]]]].
  exists f0, N, s'. split; [exact H|split; [exact HU'|split; [exact HN'|exact (proj1 Hsc HN)]]].
Qed.

Theorem statements_with_decls_linear : forall x, swfD x ->
  forall (s: ParserBase.pstate P) le stop l0, RoundTrip.Spell P le (stoks rp x) -> StreamLib.Up P s (le ++ stop :: l0) ->
  (sopen x = true -> kind_eqb (tk stop) K_ELSE = false) -> StreamLib.NoTD (scopes P s) ->
  exists f0 N s', (forall f, f0 <= f -> p_statement P f s = Ok (N, s')) /\ StreamLib.Up P s' (stop :: l0) /\
    idx P s' = idx P s + length le /\ N.to_nat (ticks P s') <= N.to_nat (ticks P s) + 3 * length le.
Proof.
  intros x Hw s le stop l0 HS HU Hop HN. destruct (parse_of_generated_statement_with_decls_cost x Hw s le stop l0 HS HU Hop HN) as [f0 [N [s' [H [HU' [_ [Hi [Ht _]]]]]]]].
  exists f0, N, s'. split; [exact H|split; [exact HU'|split; [exact Hi|exact Ht]]].
Qed.

Theorem statements_with_decls_accepted : forall x, swfD x ->
  forall (s: ParserBase.pstate P) le stop l0, RoundTrip.Spell P le (stoks rp x) -> StreamLib.Up P s (le ++ stop :: l0) ->
  (sopen x = true -> kind_eqb (tk stop) K_ELSE = false) -> StreamLib.NoTD (scopes P s) ->
  exists f0 N s', forall f, f0 <= f -> p_statement P f s = Ok (N, s').
Proof.
  intros x Hw s le stop l0 HS HU Hop HN. destruct (parse_of_generated_statement_with_decls_cost x Hw s le stop l0 HS HU Hop HN) as [f0 [N [s' [H _]]]].
  exists f0, N, s'. exact H.
Qed.
End Thms.
