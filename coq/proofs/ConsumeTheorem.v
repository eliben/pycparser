(* C18 / C06: a successful parse consumed every item, and every item was a token. *)
From Coq Require Import List NArith Bool Arith Lia.
Import ListNotations.
From PV Require Import Regex Base LexTables ParserTables AstDefs AstSpec AstImpl PyRepr NodeModel ParserBase ParserDecl ParserMain PostLib StreamLib ConsumeProofs.
Open Scope nat_scope.

Section CT.
Variable P : Type.
(* CParser.parse succeeded  ==>  every item the lexer produced was a token, and all were delivered *)
Theorem parse_ok_all_tokens : forall fuel items eof file ast s',
  parse_tokens P fuel (init_pstate P items eof file) = Ok (ast, s') ->
  forallb (is_tok P) items = true /\ raw P s' = [].
Proof.
  intros fuel items eof file ast s' H. unfold parse_tokens in H.
  apply bind_Ok in H as (ext & s1 & E1 & H). apply bind_Ok in H as (t & s2 & E2 & H).
  assert (J0: J P (init_pstate P items eof file)) by (intros Hin; cbn in Hin; destruct Hin).
  destruct (good_p_translation_unit P fuel _ _ _ J0 E1) as [R1 J1]. destruct (good_peek P _ _ _ J1 E2) as [R2 J2].
  destruct t as [t'|]; [apply bind_Ok in H as (c & s3 & _ & H); discriminate|]. apply ret_Ok in H as [_ ->].
  (* peek returned the end-of-input sentinel: it is in the buffer, so the lexer is exhausted *)
  assert (Hin: In None (after P s2 ++ before P s2)) by (destruct (peek_spec P _ _ _ E2) as [[r ->] _]; left; reflexivity).
  specialize (J2 Hin). split; [|exact J2].
  destruct (R_trans P _ _ _ R1 R2) as [d [Ed Fd]]. cbn in Ed. rewrite J2, app_nil_r in Ed. subst. exact Fd.
Qed.
End CT.

(* the same statement on the whole pipeline (Api.run_parse = lexer + token stream + parser):
   if parse(text) succeeds, the lexer reported no error on text (no illegal character, no malformed
   literal, no comment, no bad directive) and did not crash *)
From PV Require Import UnicodeTables Lexer Api.
Definition is_rtok (i: raw_item) : bool := match i with RTok _ _ _ _ _ => true | _ => false end.

Theorem parse_ok_no_lexer_error : forall text file r,
  run_parse text file = Ok r ->
  forallb is_rtok (fst (fst (raw_lex (S (length text)) (init_lexst file) text))) = true.
Proof.
  intros text file [ast s'] H. unfold run_parse in H.
  destruct (raw_lex (S (length text)) (init_lexst file) text) as [[items stf] c] eqn:E. cbn [fst].
  apply parse_ok_all_tokens in H. destruct H as [H _].
  rewrite forallb_forall in *. intros i Hi. specialize (H (to_pitem i) (in_map _ _ _ Hi)).
  destruct i; cbn in *; congruence.
Qed.
