(* C15: eval(repr(s)) = s for every Python string (all code points below 2^32),
   for every printability oracle. *)
From Coq Require Import List NArith ZArith Bool Arith Lia.
Import ListNotations.
From PV Require Import Regex Base PyRepr PyEval ReprProofs.
Open Scope N_scope.
Ltac Zify.zify_post_hook ::= Z.to_euclidean_division_equations.

Lemma hexval_hex_digit : forall d, d < 16 -> hexval (hex_digit d) = Some d.
Proof.
  intros d Hd. unfold hex_digit, hexval. destruct (N.ltb_spec d 10).
  - destruct (N.leb_spec 48 (48 + d)); [|lia]. destruct (N.leb_spec (48 + d) 57); [|lia]. cbn [andb]. f_equal. lia.
  - destruct (N.leb_spec (87 + d) 57); [lia|]. rewrite andb_false_r.
    destruct (N.leb_spec 97 (87 + d)); [|lia]. destruct (N.leb_spec (87 + d) 102); [|lia]. cbn [andb]. f_equal. lia.
Qed.


Lemma hex_fixed_acc : forall w n acc, hex_fixed w n acc = hex_fixed w n [] ++ acc.
Proof.
  induction w as [|w IH]; intros n acc; cbn [hex_fixed]; [reflexivity|].
  rewrite IH. rewrite (IH _ [_]). rewrite <- app_assoc. reflexivity.
Qed.

Lemma hexnum_app : forall l1 l2 a, hexnum (l1 ++ l2) a = match hexnum l1 a with Some v => hexnum l2 v | None => None end.
Proof.
  induction l1 as [|d l1 IH]; intros l2 a; cbn [app hexnum]; [reflexivity|].
  destruct (hexval d); [apply IH|reflexivity].
Qed.

Lemma hexnum_hex_fixed : forall w n a, n < 16 ^ N.of_nat w -> hexnum (hex_fixed w n []) a = Some (a * 16 ^ N.of_nat w + n).
Proof.
  induction w as [|w IH]; intros n a Hn.
  - cbn in *. f_equal. lia.
  - cbn [hex_fixed]. rewrite hex_fixed_acc, hexnum_app.
    rewrite Nat2N.inj_succ, N.pow_succ_r' in Hn.
    rewrite IH; [|rewrite N.shiftr_div_pow2; apply N.div_lt_upper_bound; lia].
    cbn [hexnum]. change 15 with (N.ones 4). rewrite N.land_ones. rewrite hexval_hex_digit; [|apply N.mod_lt; lia].
    f_equal. rewrite N.shiftr_div_pow2. rewrite Nat2N.inj_succ, N.pow_succ_r'.
    pose proof (N.div_mod n 16 ltac:(lia)). nia.
Qed.

Lemma decode1_hex : forall q e w c t, (q = 39 \/ q = 34) -> In (e, w) hex_escapes ->
  c < 16 ^ N.of_nat w -> decode1 q (92 :: e :: hex_fixed w c [] ++ t) = Some (Some c, t).
Proof.
  intros q e w c t Hq He Hc. pose proof (hexnum_hex_fixed w c 0 Hc) as Hn.
  destruct He as [[= <- <-]|[[= <- <-]|[[= <- <-]|[]]]]; destruct Hq; subst q;
    cbn -[hexnum N.land N.shiftr hex_digit N.pow] in *; rewrite Hn; reflexivity.
Qed.

Lemma decode1_plain : forall q c t, c <> q -> c <> 92 -> c <> 10 -> decode1 q (c :: t) = Some (Some c, t).
Proof. intros q c t H1 H2 H3. unfold decode1. apply N.eqb_neq in H1, H2, H3. rewrite H1, H2, H3. reflexivity. Qed.

Lemma decode1_repr_char : forall pr q c tail, (q = 39 \/ q = 34) -> c < 4294967296 ->
  decode1 q (repr_char pr q c ++ tail) = Some (Some c, tail).
Proof.
  intros pr q c tail Hq Hc. destruct (repr_char_shape_of pr q c) as [[->| ->]|e He|H1 H2 H3|e w He Hw].
  - destruct Hq; subst q; reflexivity.
  - destruct Hq; subst q; reflexivity.
  - destruct He as [[= <- <-]|[[= <- <-]|[[= <- <-]|[]]]]; destruct Hq; subst q; reflexivity.
  - apply decode1_plain; assumption.
  - apply decode1_hex; auto.
Qed.

Lemma repr_char_len : forall pr q c, (1 <= length (repr_char pr q c))%nat.
Proof. intros. destruct (repr_char_shape_of pr q c); cbn [length]; lia. Qed.

Lemma unrepr_body_repr : forall pr q s rest fuel, (q = 39 \/ q = 34) ->
  Forall (fun c => c < 4294967296) s ->
  (length (flat_map (repr_char pr q) s ++ [q] ++ rest) <= fuel)%nat ->
  unrepr_body fuel q (flat_map (repr_char pr q) s ++ [q] ++ rest) = Some (s, rest).
Proof.
  intros pr q s rest. induction s as [|c s IH]; intros fuel Hq Hs Hlen.
  - cbn [flat_map app] in *. destruct fuel as [|f]; [cbn in Hlen; lia|].
    cbn [unrepr_body decode1]. rewrite N.eqb_refl. reflexivity.
  - inversion Hs as [|? ? Hc Hr]; subst.
    cbn [flat_map] in *. rewrite <- app_assoc in *. rewrite app_length in Hlen. pose proof (repr_char_len pr q c).
    destruct fuel as [|f]; [lia|].
    cbn [unrepr_body]. rewrite decode1_repr_char by assumption.
    rewrite IH; [reflexivity|exact Hq|exact Hr|lia].
Qed.

(* eval(repr(s)) = s, with any text following the literal left untouched *)
Theorem unrepr_repr_str : forall pr s rest, Forall (fun c => c < 4294967296) s ->
  unrepr_str (py_repr_with pr s ++ rest) = Some (s, rest).
Proof.
  intros pr s rest Hs. unfold py_repr_with, unrepr_str. cbn [app].
  pose proof (repr_quote_cases s) as Hq.
  assert (Hb: (N.eqb (repr_quote s) 39 || N.eqb (repr_quote s) 34) = true).
  { destruct Hq as [H|H]; rewrite H; reflexivity. }
  rewrite Hb. rewrite <- app_assoc. apply unrepr_body_repr; auto.
Qed.
