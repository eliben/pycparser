(* C11 on the whole-parser model: every node an expression production returns - and every Compound - carries a
   coordinate (Some c), for every token stream, state and fuel.  One mutual induction over thirteen expression
   productions and p_compound_statement; what each one returns takes its coordinate either from a token (tcoord)
   or from an operand that, by induction, has one. *)
From Coq Require Import List NArith Bool Arith Lia.
Import ListNotations.
From PV Require Import Regex Base LexTables ParserTables AstDefs AstSpec AstImpl PyRepr NodeModel ParserBase ParserDecl ParserMain PostLib BinaryRefine ExprShape UnaryShape CoordTokens.
Open Scope nat_scope.

Section CO.
Variable P : Type.
Notation M := (M P).
Notation node := (node P).

Definition hc (v: node) : Prop := exists c, get_coord P v = Some (Some c).

Lemma hc_mk : forall c fs co, hc (mkN P c fs (Some co)).
Proof. intros. exists co. reflexivity. Qed.

Lemma came_tok_coord : forall (t: tok P) c, came_from P (tok_coord P t) c -> True.
Proof. intros. exact I. Qed.

Lemma hc_via_coordA : forall e ec c fs, came_from P (coordA P e) ec -> hc e -> hc (mkN P c fs ec).
Proof.
  intros e ec c fs H [c' Hc]. apply came_coordA in H. rewrite Hc in H. injection H as <-. exists c'. reflexivity.
Qed.
Lemma hc_via_tcoord : forall (t: tok P) co c fs, came_from P (tcoord P t) co -> hc (mkN P c fs co).
Proof. intros t co c fs [s [s' H]]. apply tcoord_Ok in H as [-> _]. apply hc_mk. Qed.

Lemma hc_identifier : post P hc (p_identifier P).
Proof. intros s a s' E. apply identifier_is_its_token in E as (t & _ & _ & ->). apply hc_mk. Qed.
Lemma hc_identifier_or_typeid : post P hc (p_identifier_or_typeid P).
Proof. intros s a s' E. apply identifier_or_typeid_is_its_token in E as (t & _ & _ & ->). apply hc_mk. Qed.
Lemma hc_constant : post P hc (p_constant P).
Proof. intros s a s' E. apply constant_is_its_token in E as (t & ty & _ & ->). apply hc_mk. Qed.
Lemma hc_string : forall f, post P hc (p_unified_string_literal P f).
Proof. intros f. unfold p_unified_string_literal. post_tac P. apply (post_ret P). eapply hc_via_tcoord; eassumption. Qed.
Lemma hc_wstring : forall f, post P hc (p_unified_wstring_literal P f).
Proof. intros f. unfold p_unified_wstring_literal. post_tac P. apply (post_ret P). apply hc_mk. Qed.

Definition complit_of (f: nat) (r: option (node * nat * tok P)) : M (option node) :=
  match r with
  | Some (typ, mk, lpt) =>
    bind P (accept P K_LBRACE) (fun lb =>
    match lb with
    | Some _ =>
      bind P (p_initializer_list P f) (fun init => bind P (accept P K_COMMA) (fun _ => bind P (expect P K_RBRACE) (fun _ =>
      bind P (tcoord P lpt) (fun c => ret P (Some (mkN P C_CompoundLiteral [typ; init] c))))))
    | None => bind P (reset P mk) (fun _ => ret P None)
    end)
  | None => ret P None
  end.

Lemma postfix_eq : forall f,
  p_postfix_expression P (S f) =
  bind P (try_paren_type_name P f) (fun r =>
  bind P (complit_of f r) (fun complit =>
  match complit with
  | Some cl => ret P cl
  | None => bind P (p_primary_expression P f) (fun e => p_postfix_suffixes P f e)
  end)).
Proof. reflexivity. Qed.

Lemma complit_post : forall f r, post P (fun o => match o with Some cl => hc cl | None => True end) (complit_of f r).
Proof.
  intros f r. unfold complit_of. post_tac P; apply (post_ret P); try exact I. eapply hc_via_tcoord; eassumption.
Qed.

Lemma args_eq : forall f,
  p_argument_expression_list P (S f) =
  bind P (p_assignment_expression P f) (fun e => bind P (p_comma_exprs P f) (fun rest => bind P (coordA P e) (fun ec =>
  ret P (mkN P C_ExprList [VList (e :: rest)] ec)))).
Proof. reflexivity. Qed.
Lemma compound_eq : forall f,
  p_compound_statement P (S f) =
  bind P (expect P K_LBRACE) (fun lb =>
  bind P (accept P K_RBRACE) (fun rb =>
  match rb with
  | Some _ => bind P (tcoord P lb) (fun c => ret P (mkN P C_Compound [VNone] c))
  | None => bind P (p_block_item_list P f) (fun items => bind P (expect P K_RBRACE) (fun _ => bind P (tcoord P lb) (fun c =>
            ret P (mkN P C_Compound [VList items] c))))
  end)).
Proof. reflexivity. Qed.

Definition ALL (f: nat) : Prop :=
  post P hc (p_expression P f) /\ post P hc (p_assignment_expression P f) /\ post P hc (p_conditional_expression P f) /\
  (forall m lhs, hc lhs -> post P hc (p_binary_climb P f m lhs)) /\ (forall p rhs, hc rhs -> post P hc (p_binary_inner P f p rhs)) /\
  post P hc (p_cast_expression P f) /\ post P hc (p_unary_expression P f) /\ post P hc (p_postfix_expression P f) /\
  (forall e, hc e -> post P hc (p_postfix_suffixes P f e)) /\ post P hc (p_primary_expression P f) /\
  post P hc (p_offsetof_member_designator P f) /\ (forall n, hc n -> post P hc (p_offsetof_suffixes P f n)) /\
  post P hc (p_argument_expression_list P f) /\ post P hc (p_compound_statement P f).

(* [fwd]: an operand that came from a production of the induction hypothesis has a coordinate; [hcg]: hence so has the
   node built on it or on a token; [leaf]: what is left of a production after [post_tac], a [ret] or a call covered by the hypothesis *)
Ltac fwd :=
  repeat match goal with
  | H: came_from P ?m ?e, IH: post P hc ?m |- _ =>
      lazymatch goal with He: hc e |- _ => fail | _ => pose proof (came_post P _ m hc e H IH) end
  | H: came_from P (p_binary_climb P ?f ?m ?l) ?e, IH: (forall m lhs, hc lhs -> post P hc (p_binary_climb P ?f m lhs)), Hl: hc ?l |- _ =>
      lazymatch goal with He: hc e |- _ => fail | _ => pose proof (came_post P _ _ hc e H (IH m l Hl)) end
  | H: came_from P (p_binary_inner P ?f ?m ?l) ?e, IH: (forall p rhs, hc rhs -> post P hc (p_binary_inner P ?f p rhs)), Hl: hc ?l |- _ =>
      lazymatch goal with He: hc e |- _ => fail | _ => pose proof (came_post P _ _ hc e H (IH m l Hl)) end
  end.

Ltac hcg := first [ assumption | apply hc_mk | (eapply hc_via_coordA; [eassumption|eassumption]) | (eapply hc_via_tcoord; eassumption) ].

Ltac leaf :=
  fwd;
  first
  [ apply (post_ret P); hcg
  | assumption
  | match goal with
    | IH: (forall m lhs, hc lhs -> post P hc (p_binary_climb P ?f m lhs)) |- post P hc (p_binary_climb P ?f _ _) => apply IH; hcg
    | IH: (forall p rhs, hc rhs -> post P hc (p_binary_inner P ?f p rhs)) |- post P hc (p_binary_inner P ?f _ _) => apply IH; hcg
    | IH: (forall e, hc e -> post P hc (p_postfix_suffixes P ?f e)) |- post P hc (p_postfix_suffixes P ?f _) => apply IH; hcg
    | IH: (forall n, hc n -> post P hc (p_offsetof_suffixes P ?f n)) |- post P hc (p_offsetof_suffixes P ?f _) => apply IH; hcg
    end ].

Lemma all_have_coordinates : forall f, ALL f.
Proof.
  induction f as [|f IH].
  - unfold ALL. repeat match goal with |- _ /\ _ => split end; intros; apply (post_oof P).
  - destruct IH as (H1 & H2 & H3 & H4 & H5 & H6 & H7 & H8 & H9 & H10 & H11 & H12 & H13 & H14).
    pose proof hc_identifier as T1. pose proof hc_identifier_or_typeid as T2. pose proof hc_constant as T3.
    pose proof (hc_string f) as T4. pose proof (hc_wstring f) as T5.
    unfold ALL. repeat match goal with |- _ /\ _ => split end.
    + rewrite expr_eq. post_tac P; leaf.
    + rewrite assign_eq. post_tac P; leaf.
    + rewrite cond_eq. post_tac P; leaf.
    + intros m lhs Hl. rewrite climb_eq. post_tac P; leaf.
    + intros p rhs Hr. rewrite inner_eq. post_tac P; leaf.
    + rewrite cast_eq. post_tac P; leaf.
    + rewrite unary_eq. post_tac P; leaf.
    + rewrite postfix_eq. apply (post_bind_from P); intros r Hr. apply (post_bind_from P); intros o Ho.
      pose proof (came_post P _ _ _ _ Ho (complit_post f r)) as Hcl. destruct o as [cl|]; [apply (post_ret P); exact Hcl|].
      post_tac P; leaf.
    + intros e He. rewrite UnaryShape.suffix_eq. post_tac P; leaf.
    + rewrite primary_eq. post_tac P; leaf.
    + eapply (post_ext P); [intro; simpl; reflexivity|]. post_tac P; leaf.
    + intros n Hn. eapply (post_ext P); [intro; simpl; reflexivity|]. post_tac P; leaf.
    + rewrite args_eq. post_tac P; leaf.
    + rewrite compound_eq. post_tac P; leaf.
Qed.

Theorem expression_has_coordinate : forall f, post P hc (p_expression P f).
Proof. intros f. apply (all_have_coordinates f). Qed.
Theorem assignment_expression_has_coordinate : forall f, post P hc (p_assignment_expression P f).
Proof. intros f. apply (all_have_coordinates f). Qed.
Theorem conditional_expression_has_coordinate : forall f, post P hc (p_conditional_expression P f).
Proof. intros f. apply (all_have_coordinates f). Qed.
Theorem compound_has_coordinate : forall f, post P hc (p_compound_statement P f).
Proof. intros f. apply (all_have_coordinates f). Qed.
End CO.
