(* C07, generator side of RoundTripX: for every expression of the language [ex] the generator MODEL
   (Generator.visit: visit_ID, visit_Constant, visit_BinaryOp, visit_UnaryOp, visit_ArrayRef,
   visit_StructRef, visit_FuncCall, visit_TernaryOp, visit_Assignment, visit_ExprList with
   _parenthesize_unless_simple / _parenthesize_if / _visit_expr) prints [ptext rp e], and that text,
   blanks removed, is the concatenation of the spellings of the token sequence [xt rp e]. *)
From Coq Require Import String.
From Coq Require Import List NArith ZArith Bool Arith Lia.
Import ListNotations.
From PV Require Import Regex Base AstDefs AstSpec AstImpl GenTables NodeModel Generator ClimbProofs GenParen GenBinop.
From PV Require Import LexTables ParserTables RegexLemmas LexerProofs TableProofs RoundTrip RoundTripGen RoundTripX.
Open Scope nat_scope.

(* [ex] is nested through [list] (arguments of a call, members of a comma expression) *)
Lemma ex_nested_ind (P: ex -> Prop) :
  (forall a, P (XId a)) -> (forall k v ty, P (XConst k v ty)) -> (forall o l r, P l -> P r -> P (XBin o l r)) ->
  (forall o x, P x -> P (XUn o x)) -> (forall o x, P x -> P (XPre o x)) -> (forall o x, P x -> P (XPost o x)) ->
  (forall x, P x -> P (XSizeof x)) -> (forall b i, P b -> P i -> P (XIdx b i)) -> (forall b ty f, P b -> P (XMem b ty f)) ->
  (forall b args, P b -> Forall P args -> P (XCall b args)) -> (forall c t f, P c -> P t -> P f -> P (XCond c t f)) ->
  (forall o l r, P l -> P r -> P (XAsg o l r)) -> (forall es, Forall P es -> P (XComma es)) ->
  (forall ty x, P x -> P (XCast ty x)) -> (forall ty, P (XSizeofT ty)) -> forall e, P e.
Proof.
  intros Hid Hconst Hbin Hun Hpre Hpost Hsz Hidx Hmem Hcall Hcond Hasg Hcomma Hcast Hszt. fix IH 1.
  assert (IHl: forall l, Forall P l) by (induction l as [|x r IHr]; constructor; [apply IH|exact IHr]).
  intros [a|k v ty|o l r|o x|o x|o x|x|b i|b ty f|b args|c t f|o l r|es|ty x|ty];
    [apply Hid|apply Hconst|apply Hbin|apply Hun|apply Hpre|apply Hpost|apply Hsz|apply Hidx|apply Hmem|apply Hcall|apply Hcond
    |apply Hasg|apply Hcomma|apply Hcast|apply Hszt]; solve [apply IH|apply IHl].
Qed.

Lemma punct_table : forall (Q: kind * str -> bool), forallb Q fixed_tokens = true ->
  forall o k, punct_kind_l o = Some k -> Q (k, o) = true.
Proof.
  intros Q G o k H. unfold punct_kind_l in H. destruct (find (fun e => str_eqb (snd e) o) fixed_tokens) as [[k' sp]|] eqn:E; [|discriminate H].
  injection H as <-. apply find_some in E. destruct E as [Hin Heq]. apply str_eqb_iff in Heq. cbn [snd] in Heq. subst sp.
  exact (proj1 (forallb_forall _ _) G _ Hin).
Qed.

Section GX.
Variable C : Type.
Variable rp : bool.
Notation node := (value C).

(* the TypeDecl and the Typename node of a type name made of simple specifiers *)
Definition tdC (vs: list str) : node := VNode C_TypeDecl [VNone; VList []; VNone; VNode C_IdentifierType [VList (map (fun v => VStr v) vs)] None] None.
Definition tnC (vs: list str) : node := VNode C_Typename [VNone; VList []; VNone; tdC vs] None.

Fixpoint embC (e: ex) : node :=
  match e with
  | XId a => VNode C_ID [VStr a] None
  | XConst _ v ty => VNode C_Constant [VStr ty; VStr v] None
  | XBin o l r => VNode C_BinaryOp [VStr o; embC l; embC r] None
  | XUn o x | XPre o x => VNode C_UnaryOp [VStr o; embC x] None
  | XPost o x => VNode C_UnaryOp [VStr (112%N :: o); embC x] None
  | XSizeof x => VNode C_UnaryOp [VStr (s2l "sizeof"); embC x] None
  | XIdx b i => VNode C_ArrayRef [embC b; embC i] None
  | XMem b ty f => VNode C_StructRef [embC b; VStr ty; VNode C_ID [VStr f] None] None
  | XCall b args => VNode C_FuncCall [embC b; match args with [] => VNone | _ => VNode C_ExprList [VList (map embC args)] None end] None
  | XCond c t f => VNode C_TernaryOp [embC c; embC t; embC f] None
  | XAsg o l r => VNode C_Assignment [VStr o; embC l; embC r] None
  | XComma es => VNode C_ExprList [VList (map embC es)] None
  | XCast ty x => VNode C_Cast [tnC (map snd ty); embC x] None
  | XSizeofT ty => VNode C_UnaryOp [VStr (s2l "sizeof"); tnC (map snd ty)] None
  end.

Definition vxt (e: ex) (t: str) : str := if iscomma e then par t else t.       (* _visit_expr *)
Definition wrapt (e: ex) (t: str) : str := if simple e then t else par (vxt e t).
Fixpoint ptext (e: ex) : str :=
  match e with
  | XId a => a
  | XConst _ v _ => v
  | XBin o l r =>
    (if simple l || keepLx rp o l then ptext l else par (vxt l (ptext l))) ++ s " " ++ o ++ s " " ++
    (if simple r || keepRx rp o r then ptext r else par (vxt r (ptext r)))
  | XUn o x | XPre o x => o ++ wrapt x (ptext x)
  | XPost o x => wrapt x (ptext x) ++ o
  | XSizeof x => s "sizeof(" ++ ptext x ++ s ")"
  | XIdx b i => wrapt b (ptext b) ++ s "[" ++ ptext i ++ s "]"
  | XMem b ty f => wrapt b (ptext b) ++ ty ++ f
  | XCall b args => wrapt b (ptext b) ++ s "(" ++ join_str (s ", ") (map (fun a => vxt a (ptext a)) args) ++ s ")"
  | XCond c t f => s "(" ++ vxt c (ptext c) ++ s ") ? (" ++ vxt t (ptext t) ++ s ") : (" ++ vxt f (ptext f) ++ s ")"
  | XAsg o l r => ptext l ++ s " " ++ o ++ s " " ++ (if isasg r then par (ptext r) else vxt r (ptext r))
  | XComma es => join_str (s ", ") (map (fun a => vxt a (ptext a)) es)
  | XCast ty x => s "(" ++ join_str (s " ") (map snd ty) ++ s ")" ++ s " " ++ wrapt x (ptext x)
  | XSizeofT ty => s "sizeof(" ++ join_str (s " ") (map snd ty) ++ s ")"
  end.

(* one-step equations of the generator model, by computation against Generator.v *)
Lemma visit_const : forall f v ty co st, visit C rp (S f) (VNode C_Constant [VStr ty; VStr v] co) st = GOk (v, st).
Proof. reflexivity. Qed.
Lemma visit_un_raw : forall f o x co,
  visit C rp (S f) (VNode C_UnaryOp [VStr o; x] co) =
  (if str_eqb o (s "sizeof") then gbind (visit C rp f x) (fun t => gret (s "sizeof(" ++ t ++ s ")"))
   else if str_eqb o (s "p++") then gbind (paren_unless_simple C rp f x) (fun t => gret (t ++ s "++"))
   else if str_eqb o (s "p--") then gbind (paren_unless_simple C rp f x) (fun t => gret (t ++ s "--"))
   else gbind (paren_unless_simple C rp f x) (fun t => gret (o ++ t))).
Proof. reflexivity. Qed.
Lemma visit_idx : forall f b i co,
  visit C rp (S f) (VNode C_ArrayRef [b; i] co) =
  gbind (paren_unless_simple C rp f b) (fun a => gbind (visit C rp f i) (fun t => gret (a ++ s "[" ++ t ++ s "]"))).
Proof. reflexivity. Qed.
Lemma visit_mem : forall f b ty fl co,
  visit C rp (S f) (VNode C_StructRef [b; VStr ty; fl] co) =
  gbind (paren_unless_simple C rp f b) (fun a => gbind (visit C rp f fl) (fun t => gret (a ++ ty ++ t))).
Proof. reflexivity. Qed.
Lemma visit_call : forall f b ar co,
  visit C rp (S f) (VNode C_FuncCall [b; ar] co) =
  gbind (paren_unless_simple C rp f b) (fun a =>
  gbind (match ar with VNone => gret [] | _ => visit C rp f ar end) (fun t => gret (a ++ s "(" ++ t ++ s ")"))).
Proof. reflexivity. Qed.
Lemma visit_exprlist : forall f es co,
  visit C rp (S f) (VNode C_ExprList [VList es] co) =
  gbind (mapM (visit_expr C rp f) es) (fun xs => gret (join_str (s ", ") xs)).
Proof. reflexivity. Qed.
Lemma visit_ternary : forall f c t e co,
  visit C rp (S f) (VNode C_TernaryOp [c; t; e] co) =
  gbind (visit_expr C rp f c) (fun a => gbind (visit_expr C rp f t) (fun b => gbind (visit_expr C rp f e) (fun c1 =>
  gret (s "(" ++ a ++ s ") ? (" ++ b ++ s ") : (" ++ c1 ++ s ")")))).
Proof. reflexivity. Qed.
Lemma visit_asg : forall f o l r co,
  visit C rp (S f) (VNode C_Assignment [VStr o; l; r] co) =
  gbind (visit_expr C rp f r) (fun rs => gbind (visit C rp f l) (fun ls =>
  gret (ls ++ s " " ++ o ++ s " " ++ (if is_c C C_Assignment r then s "(" ++ rs ++ s ")" else rs)))).
Proof. reflexivity. Qed.
Lemma visit_cast : forall f tt e co,
  visit C rp (S f) (VNode C_Cast [tt; e] co) =
  gbind (generate_type C rp f tt [] false) (fun t => gbind (paren_unless_simple C rp f e) (fun x => gret (s "(" ++ t ++ s ")" ++ s " " ++ x))).
Proof. reflexivity. Qed.

Lemma visit_sizeof : forall f x co,
  visit C rp (S f) (VNode C_UnaryOp [VStr (s "sizeof"); x] co) = gbind (visit C rp f x) (fun t => gret (s "sizeof(" ++ t ++ s ")")).
Proof. reflexivity. Qed.

Lemma strs_of_strs : forall vs (st: Z), strs_of C (map (fun v => VStr v) vs) st = GOk (vs, st).
Proof.
  induction vs as [|v vs IH]; intros st; [reflexivity|]. cbn [map strs_of]. eapply gbind_prints; [apply IH|reflexivity].
Qed.

Lemma join_strs_strs : forall sep vs st, join_strs C sep (VList (map (fun v => VStr v) vs)) st = GOk (join_str sep vs, st).
Proof. intros sep vs st. unfold join_strs, join_list. rewrite (gbind_ok (strs_of_strs vs st)). reflexivity. Qed.

(* _generate_type on a TypeDecl over simple specifiers, no modifiers: the names joined by blanks, then the declared name [dn]
   if there is one and it is asked for *)
Lemma gen_typedecl : forall f dn vs em st,
  generate_type C rp (S (S f)) (VNode C_TypeDecl [dn; VList []; VNone; VNode C_IdentifierType [VList (map (fun v => VStr v) vs)] None] None) [] em st =
  gbind (if truthy_v C dn && em then as_str C dn else gret [])
        (fun nstr => gret (join_str (s " ") vs ++ match nstr with [] => [] | _ => s " " ++ nstr end)) st.
Proof.
  intros f dn vs em st.
  change (generate_type C rp (S (S f)) _ [] em st) with
    (gbind (join_strs C (s " ") (VList (map (fun v => VStr v) vs))) (fun ts0 =>
       gbind (if truthy_v C dn && em then as_str C dn else gret [])
             (fun nstr => gret (ts0 ++ match nstr with [] => [] | _ => s " " ++ nstr end))) st).
  rewrite (gbind_ok (join_strs_strs (s " ") vs st)). reflexivity.
Qed.

(* on the Typename of a cast (emit_declname either way), and visit_Typename *)
Lemma gen_td : forall f vs em st, generate_type C rp (S (S f)) (tdC vs) [] em st = GOk (join_str (s " ") vs, st).
Proof. intros f vs em st. unfold tdC. rewrite gen_typedecl. unfold gbind, gret. cbn [truthy_v andb]. rewrite app_nil_r. reflexivity. Qed.
Lemma gen_tn : forall f vs em st, generate_type C rp (S (S (S f))) (tnC vs) [] em st = GOk (join_str (s " ") vs, st).
Proof.
  intros f vs em st. change (generate_type C rp (S (S (S f))) (tnC vs) [] em) with (generate_type C rp (S (S f)) (tdC vs) [] em). apply gen_td.
Qed.
Lemma visit_tn : forall f vs st, visit C rp (S (S (S f))) (tnC vs) st = GOk (join_str (s " ") vs, st).
Proof. intros f vs st. change (visit C rp (S (S (S f))) (tnC vs)) with (generate_type C rp (S (S f)) (tdC vs) [] true). apply gen_td. Qed.

Lemma pus_eq : forall f n, paren_unless_simple C rp (S f) n =
  gbind (visit_expr C rp f n) (fun x => if is_simple C n then gret x else gret (s "(" ++ x ++ s ")")).
Proof. reflexivity. Qed.

(* _visit_expr: of its special cases only ExprList occurs among the [embC e] *)
Lemma visit_expr_emb : forall f e, visit_expr C rp (S f) (embC e) =
  if iscomma e then gbind (visit C rp f (embC e)) (fun x => gret (s "(" ++ x ++ s ")")) else visit C rp f (embC e).
Proof. intros f e. destruct e; reflexivity. Qed.
Lemma is_simple_emb : forall e, is_simple C (embC e) = simple e.
Proof. destruct e; reflexivity. Qed.
Lemma is_asg_emb : forall e, is_c C C_Assignment (embC e) = isasg e.
Proof. destruct e; reflexivity. Qed.

Lemma vexpr_emb : forall f e t st, visit C rp f (embC e) st = GOk (t, st) -> visit_expr C rp (S f) (embC e) st = GOk (vxt e t, st).
Proof.
  intros f e t st H. rewrite visit_expr_emb. unfold vxt. destruct (iscomma e); [|exact H]. eapply gbind_prints; [exact H|reflexivity].
Qed.

Lemma pus_emb : forall f e t st, visit C rp f (embC e) st = GOk (t, st) ->
  paren_unless_simple C rp (S (S f)) (embC e) st = GOk (wrapt e t, st).
Proof.
  intros f e t st H. rewrite pus_eq. eapply gbind_prints; [apply vexpr_emb, H|].
  rewrite is_simple_emb. unfold wrapt, vxt. destruct e; reflexivity.
Qed.

(* the two lambdas of visit_BinaryOp *)
Lemma cond_x : forall o (strict: bool) e st, prec_lookup_s o <> None -> wf e ->
  GenBinop.cond C rp o strict (embC e) st = GOk (negb (simple e || (if strict then keepRx rp o e else keepLx rp o e)), st).
Proof.
  intros o strict e st Ho Hw. destruct e; try (destruct strict; apply cond_nonbin; reflexivity).
  destruct Hw as (Ho0 & _). destruct strict; apply cond_binop; assumption.
Qed.

(* a comma expression is never kept bare, so where [keep] holds [vxt] adds nothing *)
Lemma operand_text : forall (keep: ex -> bool) e t, (forall es, keep (XComma es) = false) ->
  (if negb (simple e || keep e) then s "(" ++ vxt e t ++ s ")" else vxt e t) = (if simple e || keep e then t else par (vxt e t)).
Proof.
  intros keep e t Hk. destruct (simple e || keep e) eqn:E; [|reflexivity]. destruct e; try reflexivity.
  cbn [simple orb] in E. rewrite Hk in E. discriminate E.
Qed.

(* the three special op strings of visit_UnaryOp *)
Lemma punct_not_special : forall o, punct_kind_l o <> None ->
  str_eqb o (s "sizeof") = false /\ str_eqb o (s "p++") = false /\ str_eqb o (s "p--") = false.
Proof.
  intros o H.
  assert (G: forall x, punct_kind_l x = None -> str_eqb o x = false).
  { intros x Hx. destruct (str_eqb o x) eqn:E; [|reflexivity]. apply str_eqb_iff in E. subst x. contradiction. }
  repeat split; apply G; vm_compute; reflexivity.
Qed.
(* unop_ok, incdec_ok, asgop_ok and memop_ok have this form *)
Lemma punct_some : forall (F: kind -> bool) o, match punct_kind_l o with Some k => F k | None => false end = true -> punct_kind_l o <> None.
Proof. intros F o H E. rewrite E in H. discriminate H. Qed.

Lemma incdec_spelling : forall o, incdec_ok o = true -> o = s "++" \/ o = s "--".
Proof.
  intros o H. unfold incdec_ok in H. destruct (punct_kind_l o) as [k|] eqn:E; [|discriminate H].
  pose proof (punct_table (fun e => negb (kind_eqb (fst e) K_PLUSPLUS || kind_eqb (fst e) K_MINUSMINUS) || str_eqb (snd e) (s "++") || str_eqb (snd e) (s "--"))
                ltac:(vm_compute; reflexivity) o k E) as He. cbn [fst snd] in He. rewrite H in He.
  apply orb_true_iff in He. destruct He as [He|He]; apply str_eqb_iff in He; [left|right]; exact He.
Qed.

Lemma visit_prefix : forall f o x co, punct_kind_l o <> None ->
  visit C rp (S f) (VNode C_UnaryOp [VStr o; x] co) = gbind (paren_unless_simple C rp f x) (fun t => gret (o ++ t)).
Proof. intros f o x co H. rewrite visit_un_raw. destruct (punct_not_special o H) as (-> & -> & ->). reflexivity. Qed.
Lemma visit_postfix : forall f o x co, incdec_ok o = true ->
  visit C rp (S f) (VNode C_UnaryOp [VStr (112%N :: o); x] co) = gbind (paren_unless_simple C rp f x) (fun t => gret (t ++ o)).
Proof. intros f o x co H. destruct (incdec_spelling o H) as [-> | ->]; reflexivity. Qed.

Lemma size_pos : forall e, 1 <= size e.
Proof. destruct e; cbn [size]; lia. Qed.

Definition prints (e: ex) : Prop :=
  wf e -> forall fuel st, 3 * size e <= fuel -> visit C rp fuel (embC e) st = GOk (ptext e, st).

(* visit_ExprList *)
Lemma exprlist_prints : forall l co f st, Forall prints l -> wfl l -> 3 * list_sum (map size l) <= f ->
  visit C rp (S (S f)) (VNode C_ExprList [VList (map embC l)] co) st = GOk (join_str (s ", ") (map (fun a => vxt a (ptext a)) l), st).
Proof.
  intros l co f st IH Hw Hf. rewrite visit_exprlist. eapply gbind_prints; [|reflexivity].
  apply mapM_const_state. intros a Ha. pose proof (in_list_sum _ size l a Ha). apply vexpr_emb.
  apply (proj1 (Forall_forall _ _) IH a Ha); [exact (all_in _ wf l a Hw Ha)|lia].
Qed.

Lemma visit_prints_e : forall e, prints e.
Proof.
  induction e as [a|k v ty|o l r IHl IHr|o x IHx|o x IHx|o x IHx|x IHx|b i IHb IHi|b ty fld IHb|b args IHb IHargs|c t f IHc IHt IHf|o l r IHl IHr|es IHes|ty x IHx|ty]
    using ex_nested_ind; intros Hw fuel st Hf; cbn [size] in Hf; cbn [wf] in Hw; (destruct fuel as [|[|[|fu]]]; [lia..|]); cbn [embC].
  - reflexivity.
  - reflexivity.
  - destruct Hw as (Ho & Hl & Hr). rewrite visit_binop.
    eapply gbind_prints; [apply vexpr_emb, IHl; [exact Hl|lia]|]. eapply gbind_prints; [apply (cond_x o false); assumption|].
    eapply gbind_prints; [apply vexpr_emb, IHr; [exact Hr|lia]|]. eapply gbind_prints; [apply (cond_x o true); assumption|].
    unfold gret. cbv beta iota.
    rewrite (operand_text (keepLx rp o) l _ (fun _ => eq_refl)), (operand_text (keepRx rp o) r _ (fun _ => eq_refl)). reflexivity.
  - destruct Hw as (Ho & Hx). rewrite visit_prefix by exact (punct_some _ o Ho).
    eapply gbind_prints; [apply pus_emb, IHx; [exact Hx|lia]|reflexivity].
  - destruct Hw as (Ho & Hx). rewrite visit_prefix by exact (punct_some _ o Ho).
    eapply gbind_prints; [apply pus_emb, IHx; [exact Hx|lia]|reflexivity].
  - destruct Hw as (Ho & Hx). rewrite visit_postfix by exact Ho.
    eapply gbind_prints; [apply pus_emb, IHx; [exact Hx|lia]|reflexivity].
  - rewrite visit_sizeof. eapply gbind_prints; [apply IHx; [exact Hw|lia]|reflexivity].
  - destruct Hw as (Hb & Hi). rewrite visit_idx.
    eapply gbind_prints; [apply pus_emb, IHb; [exact Hb|lia]|]. eapply gbind_prints; [apply IHi; [exact Hi|lia]|reflexivity].
  - destruct Hw as (Hm & Hb). rewrite visit_mem. eapply gbind_prints; [apply pus_emb, IHb; [exact Hb|lia]|reflexivity].
  - destruct Hw as (Hb & Hargs). rewrite visit_call. eapply gbind_prints; [apply pus_emb, IHb; [exact Hb|lia]|].
    destruct args as [|a1 rest]; [reflexivity|]. eapply gbind_prints; [apply exprlist_prints; [exact IHargs|exact Hargs|lia]|reflexivity].
  - destruct Hw as (Hc & Ht & Hff). rewrite visit_ternary.
    eapply gbind_prints; [apply vexpr_emb, IHc; [exact Hc|lia]|]. eapply gbind_prints; [apply vexpr_emb, IHt; [exact Ht|lia]|].
    eapply gbind_prints; [apply vexpr_emb, IHf; [exact Hff|lia]|reflexivity].
  - destruct Hw as (Ho & _ & _ & Hl & Hr). rewrite visit_asg.
    eapply gbind_prints; [apply vexpr_emb, IHr; [exact Hr|lia]|]. eapply gbind_prints; [apply IHl; [exact Hl|lia]|].
    rewrite is_asg_emb. unfold gret, vxt. destruct r; reflexivity.
  - destruct Hw as (_ & Hes). apply exprlist_prints; [exact IHes|exact Hes|lia].
  - destruct Hw as (_ & Hx). pose proof (size_pos x). destruct fu as [|fu]; [lia|]. rewrite visit_cast.
    eapply gbind_prints; [apply gen_tn|]. eapply gbind_prints; [apply pus_emb, IHx; [exact Hx|lia]|reflexivity].
  - destruct fu as [|fu]; [lia|]. rewrite visit_sizeof. eapply gbind_prints; [apply visit_tn|reflexivity].
Qed.

Theorem visit_prints_x : forall n e, size e <= n -> wf e -> forall fuel st, 3 * size e <= fuel -> visit C rp fuel (embC e) st = GOk (ptext e, st).
Proof. intros n e _. apply visit_prints_e. Qed.
End GX.

Definition nb (c: N) : bool := negb (N.eqb c 32).
Definition despace (t: str) : str := filter nb t.

Lemma despace_app : forall a b, despace (a ++ b) = despace a ++ despace b.
Proof. intros a b. unfold despace. apply filter_app. Qed.

Lemma punct_noblank : forall o, punct_kind_l o <> None -> despace o = o.
Proof.
  intros o H. destruct (punct_kind_l o) as [k|] eqn:E; [|contradiction]. apply str_eqb_iff.
  exact (punct_table (fun e => str_eqb (despace (snd e)) (snd e)) ltac:(vm_compute; reflexivity) o k E).
Qed.

Lemma binop_punct : forall o, prec_lookup_s o <> None -> punct_kind_l o <> None.
Proof.
  intros o H. destruct (prec_lookup_s o) as [p|] eqn:E; [|congruence]. unfold prec_lookup_s in E. apply assoc_str_In in E.
  pose proof (proj1 (forallb_forall _ _) op_entries_ok _ E) as Hk. unfold op_entry_ok in Hk. cbn [fst] in Hk.
  destruct (punct_kind_l o); [discriminate|discriminate Hk].
Qed.

Definition spell0 (l: list (kind * str)) : str := concat (map snd l).

(* identifiers, constants and type keywords are spelled without blanks *)
Fixpoint ids_nb (e: ex) : Prop :=
  match e with
  | XId a => despace a = a
  | XConst _ v _ => despace v = v
  | XBin _ l r => ids_nb l /\ ids_nb r
  | XUn _ x | XPre _ x | XPost _ x | XSizeof x => ids_nb x
  | XIdx b i => ids_nb b /\ ids_nb i
  | XMem b _ f => despace f = f /\ ids_nb b
  | XCall b args => ids_nb b /\ (fix nl (l: list ex) : Prop := match l with [] => True | x :: r => ids_nb x /\ nl r end) args
  | XCond c t f => ids_nb c /\ ids_nb t /\ ids_nb f
  | XAsg _ l r => ids_nb l /\ ids_nb r
  | XComma es => (fix nl (l: list ex) : Prop := match l with [] => True | x :: r => ids_nb x /\ nl r end) es
  | XCast ty x => despace (spell0 ty) = spell0 ty /\ ids_nb x
  | XSizeofT ty => despace (spell0 ty) = spell0 ty
  end.
Definition nbl (l: list ex) : Prop := (fix nl (l: list ex) : Prop := match l with [] => True | x :: r => ids_nb x /\ nl r end) l.
Lemma nbl_Forall : forall l, nbl l -> Forall ids_nb l.
Proof. induction l as [|x r IH]; intros H; [constructor|]. destruct H as [H1 H2]. constructor; [exact H1|apply IH; exact H2]. Qed.

Definition spell (l: list (kind * str)) : str := concat (map snd l).
Lemma spell0_spell : spell0 = spell.
Proof. reflexivity. Qed.
Lemma spell_app : forall a b, spell (a ++ b) = spell a ++ spell b.
Proof. intros a b. unfold spell. rewrite map_app, concat_app. reflexivity. Qed.
Lemma spell_cons : forall k v y, spell ((k, v) :: y) = v ++ spell y.
Proof. reflexivity. Qed.
Lemma spell_one : forall k v, spell [(k, v)] = v.
Proof. intros k v. apply app_nil_r. Qed.
Lemma spell_parkv : forall x, spell (parkv x) = par (spell x).
Proof. intros x. unfold parkv, par. rewrite spell_cons, spell_app. reflexivity. Qed.
Lemma despace_par : forall x, despace (par x) = par (despace x).
Proof. intros x. unfold par. rewrite !despace_app. reflexivity. Qed.

Lemma par_text : forall t k, despace t = spell k -> despace (par t) = spell (parkv k).
Proof. intros t k H. rewrite despace_par, spell_parkv, H. reflexivity. Qed.
Lemma vx_text : forall e t k, despace t = spell k -> despace (vxt e t) = spell (vx e k).
Proof. intros e t k H. unfold vxt, vx. destruct (iscomma e); [apply par_text|]; exact H. Qed.
Lemma wrap_text : forall e t k, despace t = spell k -> despace (wrapt e t) = spell (wrap e k).
Proof. intros e t k H. unfold wrapt, wrap. destruct (simple e); [exact H|]. apply par_text, vx_text, H. Qed.
Lemma operand_tokens : forall (keep: bool) e t k, despace t = spell k ->
  despace (if simple e || keep then t else par (vxt e t)) = spell (if keep then k else wrap e k).
Proof. intros [|] e t k H; [rewrite orb_true_r; exact H|]. rewrite orb_false_r. exact (wrap_text e t k H). Qed.

Lemma join_text : forall (ts: list str) (ks: list (list (kind * str))), Forall2 (fun t k => despace t = spell k) ts ks ->
  despace (join_str (s ", ") ts) = spell (commas ks).
Proof.
  intros ts ks H. induction H as [|t k ts ks Htk H IH]; [reflexivity|].
  destruct H as [|t2 k2 ts2 ks2 Htk2 H2]; [exact Htk|].
  change (join_str (s ", ") (t :: t2 :: ts2)) with (t ++ s ", " ++ join_str (s ", ") (t2 :: ts2)).
  change (commas (k :: k2 :: ks2)) with (k ++ (K_COMMA, s2l ",") :: commas (k2 :: ks2)).
  rewrite !despace_app, spell_app, spell_cons, IH, Htk. reflexivity.
Qed.

Lemma despace_join_blank : forall vs, despace (join_str (s " ") vs) = despace (concat vs).
Proof.
  induction vs as [|v vs IH]; [reflexivity|]. destruct vs as [|v2 vs2]; [cbn [join_str concat]; rewrite app_nil_r; reflexivity|].
  change (join_str (s " ") (v :: v2 :: vs2)) with (v ++ s " " ++ join_str (s " ") (v2 :: vs2)).
  change (concat (v :: v2 :: vs2)) with (v ++ concat (v2 :: vs2)). rewrite !despace_app, IH. reflexivity.
Qed.
Lemma tyname_text : forall ty, despace (spell0 ty) = spell0 ty -> despace (join_str (s " ") (map snd ty)) = spell ty.
Proof. intros ty H. rewrite despace_join_blank, <- spell0_spell. exact H. Qed.

Definition spelled rp (e: ex) : Prop := wf e -> ids_nb e -> despace (ptext rp e) = spell (xt rp e).

Lemma args_text : forall rp l, Forall (spelled rp) l -> wfl l -> nbl l ->
  despace (join_str (s ", ") (map (fun a => vxt a (ptext rp a)) l)) = spell (commas (map (fun a => vx a (xt rp a)) l)).
Proof.
  intros rp l IH Hw Hn. apply join_text. induction IH as [|x r Hx _ IHr]; [constructor|]. destruct Hw as [Hwx Hwr]. destruct Hn as [Hnx Hnr].
  constructor; [apply vx_text, Hx; assumption|apply IHr; assumption].
Qed.

Lemma ptext_spelled : forall rp e, spelled rp e.
Proof.
  intros rp. induction e as [a|k v ty|o l r IHl IHr|o x IHx|o x IHx|o x IHx|x IHx|b i IHb IHi|b ty fld IHb|b args IHb IHargs|c t f IHc IHt IHf|o l r IHl IHr|es IHes|ty x IHx|ty]
    using ex_nested_ind; intros Hw Hn; cbn [wf] in Hw; cbn [ids_nb] in Hn; cbn [ptext xt].
  - rewrite spell_one. exact Hn.
  - rewrite spell_one. exact Hn.
  - destruct Hw as (Ho & Hl & Hr). destruct Hn as (Hnl & Hnr).
    rewrite !despace_app, spell_app, spell_cons, (punct_noblank o (binop_punct o Ho)).
    rewrite (operand_tokens _ l _ _ (IHl Hl Hnl)), (operand_tokens _ r _ _ (IHr Hr Hnr)). reflexivity.
  - destruct Hw as (Ho & Hx). rewrite despace_app, spell_cons, (punct_noblank o (punct_some _ o Ho)), (wrap_text x _ _ (IHx Hx Hn)). reflexivity.
  - destruct Hw as (Ho & Hx). rewrite despace_app, spell_cons, (punct_noblank o (punct_some _ o Ho)), (wrap_text x _ _ (IHx Hx Hn)). reflexivity.
  - destruct Hw as (Ho & Hx). rewrite despace_app, spell_app, spell_one, (punct_noblank o (punct_some _ o Ho)), (wrap_text x _ _ (IHx Hx Hn)). reflexivity.
  - rewrite !despace_app, spell_cons, spell_parkv, (IHx Hw Hn). reflexivity.
  - destruct Hw as (Hb & Hi). destruct Hn as (Hnb & Hni).
    rewrite !despace_app, spell_app, spell_cons, spell_app, (IHi Hi Hni), (wrap_text b _ _ (IHb Hb Hnb)). reflexivity.
  - destruct Hw as (Hm & Hb). destruct Hn as (Hnf & Hnb).
    rewrite !despace_app, spell_app, spell_cons, spell_one, (punct_noblank ty (punct_some _ ty Hm)), Hnf, (wrap_text b _ _ (IHb Hb Hnb)). reflexivity.
  - destruct Hw as (Hb & Hargs). destruct Hn as (Hnb & Hnargs).
    rewrite !despace_app, spell_app, spell_cons, spell_app, (wrap_text b _ _ (IHb Hb Hnb)), (args_text rp args IHargs Hargs Hnargs). reflexivity.
  - destruct Hw as (Hc & Ht & Hf). destruct Hn as (Hnc & Hnt & Hnf).
    rewrite !despace_app, (vx_text c _ _ (IHc Hc Hnc)), (vx_text t _ _ (IHt Ht Hnt)), (vx_text f _ _ (IHf Hf Hnf)).
    rewrite spell_app, spell_cons, spell_app, spell_cons, !spell_parkv. unfold par. rewrite <- !app_assoc. reflexivity.
  - destruct Hw as (Ho & _ & _ & Hl & Hr). destruct Hn as (Hnl & Hnr).
    rewrite !despace_app, spell_app, spell_cons, (punct_noblank o (punct_some _ o Ho)), (IHl Hl Hnl).
    destruct (isasg r); [rewrite (par_text _ _ (IHr Hr Hnr))|rewrite (vx_text r _ _ (IHr Hr Hnr))]; reflexivity.
  - destruct Hw as (_ & Hes). exact (args_text rp es IHes Hes Hn).
  - destruct Hw as (_ & Hx). destruct Hn as (Hty & Hnx).
    rewrite !despace_app, spell_cons, spell_app, spell_cons, (wrap_text x _ _ (IHx Hx Hnx)), (tyname_text ty Hty). reflexivity.
  - rewrite !despace_app, !spell_cons, spell_app, (tyname_text ty Hn). reflexivity.
Qed.

Theorem ptext_tokens : forall rp n e, size e <= n -> wf e -> ids_nb e -> despace (ptext rp e) = spell (xt rp e).
Proof. intros rp n e _. apply ptext_spelled. Qed.

(* the theorems apply to something: `a[i].f = -b * (c ? d : e), g(1, (x, y))` *)
Definition ex_x : ex :=
  XComma [XAsg (s2l "=") (XMem (XIdx (XId (s2l "a")) (XId (s2l "i"))) (s2l ".") (s2l "f"))
            (XBin (s2l "*") (XUn (s2l "-") (XId (s2l "b"))) (XCond (XId (s2l "c")) (XId (s2l "d")) (XId (s2l "e"))));
          XCall (XId (s2l "g")) [XConst K_INT_CONST_DEC (s2l "1") (s2l "int"); XComma [XId (s2l "x"); XId (s2l "y")]]].
Example expression_example :
  wf ex_x /\ ids_nb ex_x /\
  visit nat false 80 (embC nat ex_x) 0%Z = GOk (s2l "a[i].f = (-b) * ((c) ? (d) : (e)), g(1, (x, y))", 0%Z) /\
  map fst (xt false ex_x) = [K_ID; K_LBRACKET; K_ID; K_RBRACKET; K_PERIOD; K_ID; K_EQUALS; K_LPAREN; K_MINUS; K_ID; K_RPAREN; K_TIMES;
                             K_LPAREN; K_LPAREN; K_ID; K_RPAREN; K_CONDOP; K_LPAREN; K_ID; K_RPAREN; K_COLON; K_LPAREN; K_ID; K_RPAREN; K_RPAREN;
                             K_COMMA; K_ID; K_LPAREN; K_INT_CONST_DEC; K_COMMA; K_LPAREN; K_ID; K_COMMA; K_ID; K_RPAREN; K_RPAREN].
Proof.
  split; [cbn; repeat split; solve [reflexivity | discriminate | lia]|]. split; [cbn; repeat split|]. split; vm_compute; reflexivity.
Qed.

(* casts and sizeof of a type name: `((unsigned long) (a + 1)) * (sizeof(int))` *)
Definition ex_c : ex :=
  XBin (s2l "*") (XCast [(K_UNSIGNED, s2l "unsigned"); (K_LONG, s2l "long")] (XBin (s2l "+") (XId (s2l "a")) (XConst K_INT_CONST_DEC (s2l "1") (s2l "int"))))
       (XSizeofT [(K_INT, s2l "int")]).
Example cast_example :
  wf ex_c /\ ids_nb ex_c /\
  visit nat false 80 (embC nat ex_c) 0%Z = GOk (s2l "((unsigned long) (a + 1)) * (sizeof(int))", 0%Z) /\
  map fst (xt false ex_c) = [K_LPAREN; K_LPAREN; K_UNSIGNED; K_LONG; K_RPAREN; K_LPAREN; K_ID; K_PLUS; K_INT_CONST_DEC; K_RPAREN; K_RPAREN; K_TIMES;
                             K_LPAREN; K_SIZEOF; K_LPAREN; K_INT; K_RPAREN; K_RPAREN].
Proof.
  split; [cbn; repeat split; first [reflexivity | discriminate | lia | (left; split; [discriminate|repeat constructor])]|]. split; [cbn; repeat split|]. split; vm_compute; reflexivity.
Qed.
