(* C10 / C06, unbounded: every integer-constant token the lexer can emit (decimal, octal, hex,
   binary; any number of digits) is classified by _parse_constant - no ValueError - and the type
   is the one its suffix spells.  Route: a denotational semantics [in_re] of the regex ASTs, the
   matcher is sound for it, a computed split of each INT rule into  body . finite-suffix-list
   (robust against rewrites of the rule that keep that shape), and a computation over the
   suffix list of the regenerated table. *)
From Coq Require Import List NArith Bool Arith Lia.
Import ListNotations.
From PV Require Import Regex Base UnicodeTables LexTables PyRepr Lexer RegexLemmas LexerProofs LiteralProofs AstDefs AstSpec AstImpl NodeModel ParserBase ParserDecl.
Open Scope nat_scope.

Fixpoint chars_of (rs: list (N*N)) : option (list N) :=     (* only singleton ranges and two-element ranges are enumerated *)
  match rs with
  | [] => Some []
  | (a, b) :: r =>
    match chars_of r with
    | None => None
    | Some l => if N.eqb a b then Some (a :: l) else if N.eqb (a + 1) b then Some (a :: b :: l) else None
    end
  end.

Fixpoint fin (r: re) : option (list str) :=
  match r with
  | Eps => Some [[]]
  | Chr (CSet false rs) => match chars_of rs with Some l => Some (map (fun c => [c]) l) | None => None end
  | Chr (CSet true _) => None
  | Seq a b => match fin a, fin b with
               | Some la, Some lb => Some (flat_map (fun x => map (fun y => x ++ y) lb) la)
               | _, _ => None end
  | Alt a b => match fin a, fin b with Some la, Some lb => Some (la ++ lb) | _, _ => None end
  | Star _ | NotAhead _ | AtEnd => None
  end.

Lemma chars_of_sound : forall rs l c, chars_of rs = Some l -> in_ranges c rs = true -> In c l.
Proof.
  induction rs as [|[a b] r IH]; intros l c H Hin; [discriminate|].
  cbn [chars_of] in H. destruct (chars_of r) as [l0|] eqn:E; [|discriminate].
  unfold in_ranges in Hin. cbn [existsb fst snd] in Hin. apply orb_true_iff in Hin.
  destruct (N.eqb a b) eqn:Eab.
  - injection H as <-. destruct Hin as [Hc|Hc].
    + apply andb_true_iff in Hc. destruct Hc as [H1 H2]. apply N.leb_le in H1, H2. apply N.eqb_eq in Eab. left. lia.
    + right. eapply IH; eauto.
  - destruct (N.eqb (a + 1) b) eqn:Eab1; [|discriminate]. injection H as <-. destruct Hin as [Hc|Hc].
    + apply andb_true_iff in Hc. destruct Hc as [H1 H2]. apply N.leb_le in H1, H2. apply N.eqb_eq in Eab1.
      assert (c = a \/ c = b) as [->| ->] by lia; [left; reflexivity|right; left; reflexivity].
    + right. right. eapply IH; eauto.
Qed.

Lemma fin_sound : forall r l w, fin r = Some l -> in_re r w -> In w l.
Proof.
  induction r as [|cs|a IHa b IHb|a IHa b IHb|a IHa|a IHa|]; intros l w H Hin; cbn [fin] in H; try discriminate.
  - injection H as <-. inversion Hin; subst. left. reflexivity.
  - destruct cs as [[|] rs]; [discriminate|]. destruct (chars_of rs) as [l0|] eqn:E; [|discriminate]. injection H as <-.
    inversion Hin; subst. apply (in_map (fun c0 : N => [c0]) l0 c), (chars_of_sound _ _ _ E).
    unfold cset_mem in H0. destruct (in_ranges c rs); [reflexivity|discriminate].
  - destruct (fin a) as [la|] eqn:Ea; [|discriminate]. destruct (fin b) as [lb|] eqn:Eb; [|discriminate]. injection H as <-.
    inversion Hin; subst. apply in_flat_map. exists x. split; [eapply IHa; eauto|]. apply in_map. eapply IHb; eauto.
  - destruct (fin a) as [la|] eqn:Ea; [|discriminate]. destruct (fin b) as [lb|] eqn:Eb; [|discriminate]. injection H as <-.
    apply in_or_app. inversion Hin; subst; [left; eapply IHa; eauto|right; eapply IHb; eauto].
Qed.

(* body . tails : every word of r is a word of the body followed by one of finitely many tails *)
Fixpoint rsplit (r: re) : option (re * list str) :=
  match fin r with
  | Some l => Some (Eps, l)
  | None =>
    match r with
    | Seq a b => match rsplit b with Some (b', t) => Some (Seq a b', t) | None => None end
    | Alt a b => match rsplit a, rsplit b with
                 | Some (a', ta), Some (b', tb) => Some (Alt a' b', ta ++ tb)
                 | _, _ => None end
    | _ => None
    end
  end.

Lemma rsplit_sound : forall r b ts w, rsplit r = Some (b, ts) -> in_re r w ->
  exists x t, w = x ++ t /\ in_re b x /\ In t ts.
Proof.
  induction r as [|cs|a IHa b0 IHb|a IHa b0 IHb|a IHa|a IHa|]; intros b ts w H Hin; cbn [rsplit] in H;
    (destruct (fin _) as [l|] eqn:E; [injection H as <- <-; exists [], w; repeat split; [constructor|exact (fin_sound _ _ _ E Hin)]|]);
    try discriminate H.
  - destruct (rsplit b0) as [[b' t]|]; [|discriminate]. injection H as <- <-.
    inversion Hin as [| |? ? x y Ha Hb| | | | | |]; subst. destruct (IHb _ _ _ eq_refl Hb) as (x1 & t1 & -> & Hb' & Ht).
    exists (x ++ x1), t1. rewrite app_assoc. repeat split; [constructor; assumption|exact Ht].
  - destruct (rsplit a) as [[a' ta]|]; [|discriminate]. destruct (rsplit b0) as [[b' tb]|]; [|discriminate].
    injection H as <- <-. inversion Hin as [| | |? ? ? Ha|? ? ? Hb| | | |]; subst.
    + destruct (IHa _ _ _ eq_refl Ha) as (x1 & t1 & -> & Hx & Ht). exists x1, t1. repeat split; [apply IR_altl; assumption|apply in_or_app; left; exact Ht].
    + destruct (IHb _ _ _ eq_refl Hb) as (x1 & t1 & -> & Hx & Ht). exists x1, t1. repeat split; [apply IR_altr; assumption|apply in_or_app; right; exact Ht].
Qed.

(* no character a regex can produce is in bad (positive character sets only) *)
Definition range_ok (bad: list N) (ab: N * N) : bool := forallb (fun c => N.ltb c (fst ab) || N.ltb (snd ab) c) bad.
Fixpoint alpha_ok (bad: list N) (r: re) : bool :=
  match r with
  | Eps | NotAhead _ | AtEnd => true
  | Chr (CSet false rs) => forallb (range_ok bad) rs
  | Chr (CSet true _) => false
  | Seq a b | Alt a b => alpha_ok bad a && alpha_ok bad b
  | Star a => alpha_ok bad a
  end.

Lemma range_ok_sound : forall bad rs c, forallb (range_ok bad) rs = true -> cset_mem c (CSet false rs) = true -> ~ In c bad.
Proof.
  intros bad rs c H Hc Hb. apply cset_mem_ranges in Hc. destruct Hc as ([a b] & Hr & Hab). cbn [fst snd] in Hab.
  pose proof (forallb_In _ _ _ (forallb_In _ _ _ H Hr) Hb) as Hn. cbn [fst snd] in Hn.
  apply orb_true_iff in Hn. destruct Hn as [Hn|Hn]; apply N.ltb_lt in Hn; lia.
Qed.

Lemma alpha_ok_sound : forall bad r w, alpha_ok bad r = true -> in_re r w -> Forall (fun c => ~ In c bad) w.
Proof.
  intros bad r w H Hin. induction Hin; cbn [alpha_ok] in H; try (constructor; fail).
  - destruct cs as [[|] rs]; [discriminate|]. constructor; [|constructor]. exact (range_ok_sound _ _ _ H H0).
  - apply andb_true_iff in H. destruct H as [Ha Hb]. apply Forall_app. split; auto.
  - apply andb_true_iff in H. destruct H as [Ha Hb]. auto.
  - apply andb_true_iff in H. destruct H as [Ha Hb]. auto.
  - apply Forall_app. split; [apply IHHin1; exact H|apply IHHin2; exact H].
Qed.

(* _parse_constant's typing of integer constants. *)
Lemma nsub_sub : forall m n, nsub n m = n - m.
Proof. induction m as [|m IH]; intros [|n]; cbn [nsub]; try lia. rewrite IH. lia. Qed.

Definition BAD : list N := [76; 85; 108; 117]%N.    (* L U l u *)

Lemma count_if_app : forall f (a b: str), count_if f (a ++ b) = count_if f a + count_if f b.
Proof. intros f a b. unfold count_if. rewrite filter_app, app_length. reflexivity. Qed.

Lemma not_in_eqb : forall (c d: N) l, ~ In c l -> In d l -> N.eqb c d = false.
Proof. intros c d l H Hd. apply N.eqb_neq. intros ->. exact (H Hd). Qed.

Lemma last_n_app : forall n (x t: str), last_n n (x ++ t) = skipn (length x + length t - n) x ++ last_n n t.
Proof. intros n x t. unfold last_n. rewrite !nsub_sub, app_length, skipn_app. do 2 f_equal. lia. Qed.

Lemma Forall_skipn : forall (Q: N -> Prop) n x, Forall Q x -> Forall Q (skipn n x).
Proof. intros Q n x H. rewrite <- (firstn_skipn n x) in H. apply Forall_app in H. apply H. Qed.

Lemma int_type_of_suffix : forall x t, Forall (fun c => ~ In c BAD) x ->
  int_const_type false (x ++ t) = int_const_type false t.
Proof.
  intros x t Hx. unfold int_const_type. cbv iota. rewrite last_n_app, !count_if_app.
  apply (Forall_skipn _ (length x + length t - 3)) in Hx.
  rewrite (count_none is_lL), (count_none (fun c => negb (is_lL c) && is_uU c)); [reflexivity|..];
    (eapply Forall_impl; [|exact Hx]); intros c Hc; cbv beta;
    unfold is_lL, is_uU; rewrite !(not_in_eqb c _ BAD Hc) by (cbn; auto 6); reflexivity.
Qed.

Definition spec_type (t: str) : str :=
  concat_str (repeat (s2l "unsigned ") (count_if is_uU t)) ++ concat_str (repeat (s2l "long ") (count_if is_lL t)) ++ s2l "int".

Definition tail_ok (t: str) : bool :=
  match int_const_type false t with Some ty => str_eqb ty (spec_type t) | None => false end.

Definition rule_ok (r: re) : bool :=
  match rsplit r with
  | Some (b, ts) => alpha_ok BAD b && forallb tail_ok ts
  | None => false
  end.

(* the four integer rules of the regenerated table have the shape  digits . suffix  with digits free of
   u/U/l/L and every possible suffix classified correctly (computed on the table) *)
Lemma int_rules_ok : rule_ok re_INT_CONST_DEC = true /\ rule_ok re_INT_CONST_OCT = true /\
                     rule_ok re_INT_CONST_HEX = true /\ rule_ok re_INT_CONST_BIN = true.
Proof. vm_compute. repeat split; reflexivity. Qed.

Theorem int_word_classified : forall r w, rule_ok r = true -> in_re r w ->
  exists x t, w = x ++ t /\ Forall (fun c => ~ In c BAD) x /\ int_const_type false w = Some (spec_type t).
Proof.
  intros r w Hok Hin. unfold rule_ok in Hok. destruct (rsplit r) as [[b ts]|] eqn:E; [|discriminate].
  apply andb_true_iff in Hok. destruct Hok as [Ha Ht].
  destruct (rsplit_sound _ _ _ _ E Hin) as (x & t & -> & Hb & Hint).
  pose proof (alpha_ok_sound _ _ _ Ha Hb) as Hx.
  pose proof (forallb_In _ _ _ Ht Hint) as Hty. unfold tail_ok in Hty.
  exists x, t. split; [reflexivity|]. split; [exact Hx|].
  rewrite (int_type_of_suffix x t Hx). destruct (int_const_type false t) as [ty|]; [|discriminate].
  apply str_eqb_iff in Hty. rewrite Hty. reflexivity.
Qed.

Definition int_kind (k: kind) : option re :=
  match k with
  | K_INT_CONST_DEC => Some re_INT_CONST_DEC | K_INT_CONST_OCT => Some re_INT_CONST_OCT
  | K_INT_CONST_HEX => Some re_INT_CONST_HEX | K_INT_CONST_BIN => Some re_INT_CONST_BIN
  | _ => None
  end.

Definition is_int_kind (k: kind) : bool := match int_kind k with Some _ => true | None => false end.

Lemma int_rules_of_table :
  forallb (fun r => match ract r with
                    | A_TOKEN k => if is_int_kind k then rule_ok (rre r) else true
                    | _ => true end) regex_rules = true.
Proof. vm_compute. reflexivity. Qed.
Lemma int_regex_only : regex_only is_int_kind = true.
Proof. vm_compute. reflexivity. Qed.

Definition item_ok (i: raw_item) : Prop :=
  match i with
  | RTok k v _ _ _ => is_int_kind k = true ->
      exists x t, v = x ++ t /\ Forall (fun c => ~ In c BAD) x /\ int_const_type false v = Some (spec_type t)
  | _ => True
  end.

(* every integer-constant token of the whole token stream of any text: its spelling is a part free of
   u/U/l/L followed by a suffix, and _parse_constant's classifier gives it the type that suffix spells *)
Theorem lexer_int_tokens_typed : forall fuel st rest, Forall item_ok (fst (fst (raw_lex fuel st rest))).
Proof. exact (raw_lex_rule_tokens _ _ _ int_regex_only int_rules_of_table int_word_classified). Qed.
