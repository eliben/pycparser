(* Tie between the abstract parenthesisation theorem (GenParen.v) and the generator model
   (Generator.v, tied to c_generator.py by text-exact correspondence): on every tree of binary
   operators over identifiers, with either setting of reduce_parentheses, the generator model
   prints exactly the rendering of GenParen.flatten -- atoms and operators in order, an atom
   being an identifier or a parenthesised subtree. *)
From Coq Require Import String.
From Coq Require Import List NArith ZArith Bool Arith Lia.
Import ListNotations.
From PV Require Import Regex Base AstDefs AstSpec AstImpl GenTables NodeModel Generator ClimbProofs GenParen.
Open Scope nat_scope.

Lemma gbind_ok {A B} {m: GM A} {f: A -> GM B} {st a st'} : m st = GOk (a, st') -> gbind m f st = f a st'.
Proof. intros H. unfold gbind. rewrite H. reflexivity. Qed.
(* the state is the indentation level; most steps leave it as it is *)
Lemma gbind_prints {A B} (m: GM A) (f: A -> GM B) a b st :
  m st = GOk (a, st) -> f a st = GOk (b, st) -> gbind m f st = GOk (b, st).
Proof. intros Hm Hf. rewrite (gbind_ok Hm). exact Hf. Qed.

Lemma mapM_const_state {X A B} (f: A -> GM B) (g: X -> A) (h: X -> B) l st :
  (forall a, In a l -> f (g a) st = GOk (h a, st)) -> mapM f (map g l) st = GOk (map h l, st).
Proof.
  induction l as [|x r IH]; intros H; [reflexivity|]. cbn [map mapM].
  eapply gbind_prints; [apply H; left; reflexivity|].
  eapply gbind_prints; [apply IH; intros a Ha; apply H; right; exact Ha|reflexivity].
Qed.

Section GB.
Variable C : Type.
Variable rp : bool.
Notation node := (value C).
Notation gt := (gt str str).

Definition gprec (o: str) : nat := match prec_lookup_s o with Some p => p | None => 0 end.
Notation keepL := (keepL str str gprec rp).
Notation keepR := (keepR str str gprec rp).

Fixpoint emb (t: gt) : node :=
  match t with
  | GLeaf _ _ a => VNode C_ID [VStr a] None
  | GBin _ _ o l r => VNode C_BinaryOp [VStr o; emb l; emb r] None
  end.

Fixpoint ops_known (t: gt) : Prop :=
  match t with
  | GLeaf _ _ _ => True
  | GBin _ _ o l r => prec_lookup_s o <> None /\ ops_known l /\ ops_known r
  end.

Fixpoint height (t: gt) : nat :=
  match t with GLeaf _ _ _ => 1 | GBin _ _ _ l r => S (Nat.max (height l) (height r)) end.

Definition par (x: str) : str := s "(" ++ x ++ s ")".
Definition is_leaf (t: gt) : bool := match t with GLeaf _ _ _ => true | _ => false end.

Fixpoint print (t: gt) : str :=
  match t with
  | GLeaf _ _ a => a
  | GBin _ _ o l r =>
    (if is_leaf l || keepL o l then print l else par (print l)) ++ s " " ++ o ++ s " " ++
    (if is_leaf r || keepR o r then print r else par (print r))
  end.

Definition atom_text (t: gt) : str := if is_leaf t then print t else par (print t).
Definition render (hl: gt * list (str * gt)) : str :=
  atom_text (fst hl) ++ concat_str (map (fun oa => s " " ++ fst oa ++ s " " ++ atom_text (snd oa)) (snd hl)).

Lemma concat_str_app : forall a b, concat_str (a ++ b) = concat_str a ++ concat_str b.
Proof. exact (@concat_app N). Qed.

Lemma keepL_node : forall o d, keepL o d = true -> is_leaf d = false.
Proof. intros o [a|od l r] H; [discriminate H|reflexivity]. Qed.
Lemma keepR_node : forall o d, keepR o d = true -> is_leaf d = false.
Proof. intros o [a|od l r] H; [discriminate H|reflexivity]. Qed.

Lemma operand_render : forall (k: bool) d, (k = true -> is_leaf d = false) ->
  (is_leaf d = false -> print d = render (flatten str str gprec rp d)) ->
  (if is_leaf d || k then print d else par (print d)) = render (if k then flatten str str gprec rp d else (d, [])).
Proof.
  intros [|] d Hk IH; [rewrite orb_true_r; apply IH, Hk; reflexivity|].
  rewrite orb_false_r. unfold render, atom_text. cbn [fst snd map concat_str]. symmetry. apply app_nil_r.
Qed.

Lemma render_bin : forall o hl ll hr lr,
  render (hl, ll) ++ s " " ++ o ++ s " " ++ render (hr, lr) = render (hl, ll ++ (o, hr) :: lr).
Proof.
  intros o hl ll hr lr. unfold render. cbn [fst snd]. rewrite map_app, concat_str_app. cbn [map concat_str fst snd].
  rewrite <- !app_assoc. reflexivity.
Qed.

Lemma print_is_render : forall t, is_leaf t = false -> print t = render (flatten str str gprec rp t).
Proof.
  induction t as [a|o l IHl r IHr]; intros Hl; [discriminate|]. cbn [print GenParen.flatten].
  pose proof (operand_render _ l (keepL_node o l) IHl) as HL. pose proof (operand_render _ r (keepR_node o r) IHr) as HR.
  destruct (if keepL o l then _ else _) as [hl ll], (if keepR o r then _ else _) as [hr lr].
  rewrite <- render_bin, <- HL, <- HR. reflexivity.
Qed.

(* the two lambdas of visit_BinaryOp (strict: the one for the right operand) *)
Definition cond (op: str) (strict: bool) (d: node) : GM (bool) :=
  if is_simple C d then gret false
  else if rp && is_c C C_BinaryOp d then
    gbind (gattr C "op" d) (fun dopv => gbind (as_str C dopv) (fun dop =>
      match prec_lookup_s dop, prec_lookup_s op with
      | Some pd, Some pn => gret (negb (if strict then Nat.ltb pn pd else Nat.leb pn pd))
      | _, _ => gcrash
      end))
  else gret true.

Lemma visit_id : forall f a co st, visit C rp (S f) (VNode C_ID [VStr a] co) st = GOk (a, st).
Proof. reflexivity. Qed.

Lemma visit_expr_binop : forall f fs co, visit_expr C rp (S f) (VNode C_BinaryOp fs co) = visit C rp f (VNode C_BinaryOp fs co).
Proof. reflexivity. Qed.
Lemma visit_expr_id : forall f fs co, visit_expr C rp (S f) (VNode C_ID fs co) = visit C rp f (VNode C_ID fs co).
Proof. reflexivity. Qed.

Lemma visit_binop : forall f o l r co,
  visit C rp (S f) (VNode C_BinaryOp [VStr o; l; r] co) =
  gbind (visit_expr C rp f l) (fun ls => gbind (cond o false l) (fun lc =>
  gbind (visit_expr C rp f r) (fun rs => gbind (cond o true r) (fun rc =>
  gret ((if lc then s "(" ++ ls ++ s ")" else ls) ++ s " " ++ o ++ s " " ++ (if rc then s "(" ++ rs ++ s ")" else rs)))))).
Proof. reflexivity. Qed.

Lemma visit_expr_gt : forall f t, visit_expr C rp (S f) (emb t) = visit C rp f (emb t).
Proof. intros f [a|o l r]; [apply visit_expr_id|apply visit_expr_binop]. Qed.

Lemma cond_nonbin : forall o strict d st, is_c C C_BinaryOp d = false -> cond o strict d st = GOk (negb (is_simple C d), st).
Proof. intros o strict d st H. unfold cond. rewrite H, andb_false_r. destruct (is_simple C d); reflexivity. Qed.

Lemma cond_binop : forall o (strict: bool) od l r co st, prec_lookup_s o <> None -> prec_lookup_s od <> None ->
  cond o strict (VNode C_BinaryOp [VStr od; l; r] co) st =
  GOk (negb (rp && (if strict then gprec o <? gprec od else gprec o <=? gprec od)), st).
Proof.
  intros o strict od l r co st Ho Hod. unfold cond, gprec. destruct rp; [|reflexivity].
  change (gattr C "op" (VNode C_BinaryOp [VStr od; l; r] co)) with (@gret (value C) (VStr od)).
  cbv beta iota delta [is_simple is_c cls_eqb orb andb gbind gret as_str].
  destruct (prec_lookup_s od) as [pd|]; [|congruence]. destruct (prec_lookup_s o) as [pn|]; [|congruence].
  destruct strict; reflexivity.
Qed.

Lemma cond_emb : forall o (strict: bool) t st, prec_lookup_s o <> None -> ops_known t ->
  cond o strict (emb t) st = GOk (negb (is_leaf t || (if strict then keepR o t else keepL o t)), st).
Proof.
  intros o strict [a|od l r] st Ho Hk; [reflexivity|]. destruct Hk as [Hod _].
  destruct strict; apply cond_binop; assumption.
Qed.

Lemma height_pos : forall t, 1 <= height t.
Proof. intros [a|o l r]; cbn [height]; lia. Qed.

Theorem visit_prints : forall t, ops_known t -> forall fuel st, 2 * height t <= S fuel ->
  visit C rp fuel (emb t) st = GOk (print t, st).
Proof.
  induction t as [a|o l IHl r IHr]; intros Hk fuel st Hf; cbn [height] in Hf.
  - destruct fuel as [|f]; [lia|]. apply visit_id.
  - destruct Hk as (Ho & Hkl & Hkr). pose proof (height_pos l). destruct fuel as [|[|f]]; try lia.
    cbn [emb]. rewrite visit_binop.
    eapply gbind_prints; [rewrite visit_expr_gt; apply IHl; [exact Hkl|lia]|].
    eapply gbind_prints; [apply (cond_emb o false); assumption|].
    eapply gbind_prints; [rewrite visit_expr_gt; apply IHr; [exact Hkr|lia]|].
    eapply gbind_prints; [apply (cond_emb o true); assumption|].
    unfold gret. cbn [print]. unfold par. destruct (is_leaf l || keepL o l), (is_leaf r || keepR o r); reflexivity.
Qed.

Theorem generator_binop_text : forall t, ops_known t -> is_leaf t = false -> forall fuel st, 2 * height t <= S fuel ->
  visit C rp fuel (emb t) st = GOk (render (flatten str str gprec rp t), st) /\
  forall T, D gt str gprec 0 (Leaf gt str (fst (flatten str str gprec rp t))) (snd (flatten str str gprec rp t)) T
            <-> T = skel str str gprec rp t.
Proof.
  intros t Hk Hl fuel st Hf. split.
  - rewrite <- print_is_render by exact Hl. apply visit_prints; assumption.
  - apply generated_sequence_has_exactly_its_tree.
Qed.
End GB.
