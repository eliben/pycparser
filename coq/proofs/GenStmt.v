(* C07 / C05, generator side of StmtTrip: for every statement of StmtTrip.st (blocks included) the generator MODEL
   (_generate_stmt, visit_If / visit_While / visit_DoWhile / visit_For / visit_Return / visit_Break /
   visit_Continue / visit_Goto / visit_EmptyStatement / visit_Compound) prints [gst rp lv x] at indentation level lv and
   restores the indentation level; that text with blanks and newlines removed is the concatenation of
   the spellings of the token sequence [stoks rp x].  A declaration `T x;` / `T x = e;` is well-formed as an item of a block only
   ([swfd] is False of it elsewhere): [visit_declS] is its case, used where [vis_prints_s] goes through the items of a block ([item_prints]). *)
From Coq Require Import String.
From Coq Require Import List NArith ZArith Bool Arith Lia.
Import ListNotations.
From PV Require Import Regex Base AstDefs AstSpec AstImpl GenTables NodeModel Generator ClimbProofs GenParen GenBinop.
From PV Require Import LexTables ParserTables LexerProofs TableProofs RoundTrip RoundTripGen RoundTripX GenExpr DeclTrip StmtTrip.
Open Scope nat_scope.

(* [st] is nested through [list] (the items of a block) and [option] (the else branch) *)
Lemma st_nested_ind (P: st -> Prop) :
  (forall e, P (SExpr e)) -> P SEmpty -> (forall o, P (SReturn o)) -> P SBreak -> P SContinue -> (forall l, P (SGoto l)) ->
  (forall c th el, P th -> match el with Some e => P e | None => True end -> P (SIf c th el)) ->
  (forall c b, P b -> P (SWhile c b)) -> (forall b c, P b -> P (SDo b c)) -> (forall i c n b, P b -> P (SFor i c n b)) ->
  (forall items, Forall P items -> P (SBlock items)) -> (forall l b, P b -> P (SLabel l b)) -> (forall ty x i, P (SDecl ty x i)) ->
  forall x, P x.
Proof.
  intros Hexpr Hempty Hret Hbreak Hcont Hgoto Hif Hwhile Hdo Hfor Hblock Hlabel Hdecl. fix IH 1.
  assert (IHl: forall l, Forall P l) by (induction l as [|x r IHr]; constructor; [apply IH|exact IHr]).
  intros [e| |o| | |l|c th el|c b|b c|i c n b|items|l b|ty x i];
    [apply Hexpr|apply Hempty|apply Hret|apply Hbreak|apply Hcont|apply Hgoto|apply Hif|apply Hwhile|apply Hdo|apply Hfor|apply Hblock
    |apply Hlabel|apply Hdecl]; try solve [apply IH|apply IHl].
  destruct el as [e|]; [apply IH|exact I].
Qed.

Section GS.
Variable C : Type.
Variable rp : bool.
Variable dok : bool.
Notation swf := (swfd dok).
Notation node := (value C).
Notation embC := (embC C).
Notation ptext := (ptext rp).

Definition oembC (o: option ex) : node := match o with Some e => embC e | None => VNone end.
Definition tdx (vs: list str) (x: str) : node := VNode C_TypeDecl [VStr x; VList []; VNone; VNode C_IdentifierType [VList (map (fun v => VStr v) vs)] None] None.
Fixpoint embS (x: st) : node :=
  match x with
  | SExpr e => embC e
  | SEmpty => VNode C_EmptyStatement [] None
  | SReturn o => VNode C_Return [oembC o] None
  | SBreak => VNode C_Break [] None
  | SContinue => VNode C_Continue [] None
  | SGoto l => VNode C_Goto [VStr l] None
  | SIf c th el => VNode C_If [embC c; embS th; match el with Some e => embS e | None => VNone end] None
  | SWhile c b => VNode C_While [embC c; embS b] None
  | SDo b c => VNode C_DoWhile [embC c; embS b] None
  | SFor i c n b => VNode C_For [oembC i; oembC c; oembC n; embS b] None
  | SBlock items => VNode C_Compound [match items with [] => VNone | _ => VList (map embS items) end] None
  | SLabel l b => VNode C_Label [VStr l; embS b] None
  | SDecl ty x i => VNode C_Decl [VStr x; VList []; VList []; VList []; VList []; tdx (map snd ty) x; oembC i; VNone] None
  end.

Definition ind (lv: Z) : str := repeat 32%N (Z.to_nat lv).
Definition nl : str := [10%N].
Definition isif (x: st) : bool := match x with SIf _ _ _ => true | _ => false end.
Definition isexpr (x: st) : bool := match x with SExpr _ | SDecl _ _ _ => true | _ => false end.   (* gets a `;` from _generate_stmt *)
Definition isblock (x: st) : bool := match x with SBlock _ => true | _ => false end.

(* what _generate_stmt makes of the text v that visit printed for y, with the indentation string pre *)
Definition wrapg (pre: str) (y: st) (v: str) : str :=
  if isblock y then v else pre ++ (if isexpr y then v ++ s ";" ++ nl else if isif y then v else v ++ nl).

Definition ot1 (o: option ex) : str := match o with Some e => ptext e | None => [] end.
Definition ot2 (o: option ex) : str := match o with Some e => s " " ++ ptext e | None => [] end.

(* what visit prints for the statement node at indentation level lv *)
Fixpoint vis (x: st) (lv: Z) : str :=
  match x with
  | SExpr e => ptext e
  | SEmpty => s ";"
  | SReturn None => s "return;"
  | SReturn (Some e) => s "return" ++ s " " ++ ptext e ++ s ";"
  | SBreak => s "break;"
  | SContinue => s "continue;"
  | SGoto l => s "goto " ++ l ++ s ";"
  | SIf c th None => s "if (" ++ ptext c ++ s ")" ++ nl ++ wrapg (ind (lv + 2)) th (vis th lv)
  | SIf c th (Some el) => s "if (" ++ ptext c ++ s ")" ++ nl ++ wrapg (ind (lv + 2)) th (vis th lv) ++ ind lv ++ s "else" ++ nl ++ wrapg (ind (lv + 2)) el (vis el lv)
  | SWhile c b => s "while (" ++ ptext c ++ s ")" ++ nl ++ wrapg (ind (lv + 2)) b (vis b lv)
  | SDo b c => s "do" ++ nl ++ wrapg (ind (lv + 2)) b (vis b lv) ++ ind lv ++ s "while (" ++ ptext c ++ s ");"
  | SFor i c n b => s "for (" ++ ot1 i ++ s ";" ++ ot2 c ++ s ";" ++ ot2 n ++ s ")" ++ nl ++ wrapg (ind (lv + 2)) b (vis b lv)
  | SBlock items => ind lv ++ s "{" ++ nl ++ concat_str (map (fun y => wrapg (ind (lv + 2)) y (vis y (lv + 2))) items) ++ ind lv ++ s "}" ++ nl
  | SLabel l b => l ++ s ":" ++ nl ++ wrapg (ind lv) b (vis b lv)
  | SDecl ty x i => join_str (s " ") (map snd ty) ++ s " " ++ x ++
                    match i with Some e => s " = " ++ (if iscomma e then s "(" ++ ptext e ++ s ")" else ptext e) | None => [] end
  end.
Definition gst (lv: Z) (y: st) : str := wrapg (ind (lv + 2)) y (vis y lv).    (* _generate_stmt(y, add_indent=True) at level lv *)
Definition gs0 (lv: Z) (y: st) : str := wrapg (ind lv) y (vis y lv).          (* _generate_stmt(y) at level lv *)

(* fuel that suffices *)
Definition osize (o: option ex) : nat := match o with Some e => size e | None => 0 end.
Fixpoint cost (x: st) : nat :=
  match x with
  | SExpr e => 3 * size e + 2
  | SReturn o => 3 * osize o + 2
  | SIf c th el => 3 * size c + cost th + match el with Some e => cost e | None => 0 end + 2
  | SWhile c b | SDo b c => 3 * size c + cost b + 2
  | SFor i c n b => 3 * osize i + 3 * osize c + 3 * osize n + cost b + 2
  | SBlock items => list_sum (map cost items) + 2
  | SLabel _ b => cost b + 2
  | SDecl _ _ i => 3 * osize i + 8
  | _ => 2
  end.

Lemma make_indent_eq : forall lv, make_indent lv = GOk (ind lv, lv).
Proof. reflexivity. Qed.
(* `self.indent_level += 2; ...; self.indent_level -= 2` around a step that restores the level *)
Lemma indented : forall A B (m: GM A) (f: A -> GM B) lv a, m (lv + 2)%Z = GOk (a, (lv + 2)%Z) ->
  gbind (add_indent 2) (fun _ => gbind m (fun x => gbind (add_indent (-2)) (fun _ => f x))) lv = f a lv.
Proof. intros A B m f lv a H. unfold gbind, add_indent. rewrite H. f_equal. lia. Qed.

Lemma gs_eq : forall f n addi,
  generate_stmt C rp (S f) n addi =
  gbind (if addi then add_indent 2 else gret tt) (fun _ => gbind make_indent (fun i0 =>
  gbind (if addi then add_indent (-2) else gret tt) (fun _ =>
  if stmt_with_semicolon C n then gbind (visit C rp f n) (fun x => gret (i0 ++ x ++ s ";" ++ [10%N]))
  else if is_c C C_Compound n then visit C rp f n
  else if is_c C C_If n then gbind (visit C rp f n) (fun x => gret (i0 ++ x))
  else gbind (visit C rp f n) (fun x => gret (i0 ++ x ++ [10%N]))))).
Proof. reflexivity. Qed.

Lemma semi_emb : forall e, stmt_with_semicolon C (embC e) = true.
Proof. destruct e; reflexivity. Qed.

Lemma semi_embS : forall x, stmt_with_semicolon C (embS x) = isexpr x.
Proof. destruct x; try reflexivity. apply semi_emb. Qed.
Lemma compound_embS : forall x, is_c C C_Compound (embS x) = isblock x.
Proof. destruct x as [e| | | | | | | | | | | |]; try reflexivity. destruct e; reflexivity. Qed.
Lemma if_embS : forall x, is_c C C_If (embS x) = isif x.
Proof. destruct x as [e| | | | | | | | | | | |]; try reflexivity. destruct e; reflexivity. Qed.

(* the tail of _generate_stmt once the indentation string is known *)
Lemma gs_tail : forall f x lv pre v, visit C rp f (embS x) lv = GOk (v, lv) ->
  (if stmt_with_semicolon C (embS x) then gbind (visit C rp f (embS x)) (fun t => gret (pre ++ t ++ s ";" ++ [10%N]))
   else if is_c C C_Compound (embS x) then visit C rp f (embS x)
   else if is_c C C_If (embS x) then gbind (visit C rp f (embS x)) (fun t => gret (pre ++ t))
   else gbind (visit C rp f (embS x)) (fun t => gret (pre ++ t ++ [10%N]))) lv = GOk (wrapg pre x v, lv).
Proof.
  intros f x lv pre v Hv. rewrite semi_embS, compound_embS, if_embS. unfold wrapg.
  destruct x; cbn [isexpr isblock isif]; try exact Hv; rewrite (gbind_ok Hv); reflexivity.
Qed.

Lemma gs_run_t : forall f x lv v, visit C rp f (embS x) lv = GOk (v, lv) ->
  generate_stmt C rp (S f) (embS x) true lv = GOk (wrapg (ind (lv + 2)) x v, lv).
Proof. intros f x lv v Hv. rewrite gs_eq, (indented _ _ make_indent _ lv _ (make_indent_eq _)). exact (gs_tail f x lv _ v Hv). Qed.
Lemma gs_run_f : forall f x lv v, visit C rp f (embS x) lv = GOk (v, lv) ->
  generate_stmt C rp (S f) (embS x) false lv = GOk (wrapg (ind lv) x v, lv).
Proof. intros f x lv v Hv. rewrite gs_eq. exact (gs_tail f x lv _ v Hv). Qed.

Lemma visit_if : forall f c t e co,
  visit C rp (S f) (VNode C_If [c; t; e] co) =
  gbind (if truthy_v C c then visit C rp f c else gret []) (fun cs => gbind (generate_stmt C rp f t true) (fun ts =>
  if truthy_v C e then
    gbind make_indent (fun i0 => gbind (generate_stmt C rp f e true) (fun es =>
    gret (s "if (" ++ cs ++ s ")" ++ [10%N] ++ ts ++ i0 ++ s "else" ++ [10%N] ++ es)))
  else gret (s "if (" ++ cs ++ s ")" ++ [10%N] ++ ts))).
Proof. reflexivity. Qed.
Lemma visit_while : forall f c b co,
  visit C rp (S f) (VNode C_While [c; b] co) =
  gbind (if truthy_v C c then visit C rp f c else gret []) (fun cs => gbind (generate_stmt C rp f b true) (fun ss =>
  gret (s "while (" ++ cs ++ s ")" ++ [10%N] ++ ss))).
Proof. reflexivity. Qed.
Lemma visit_do : forall f c b co,
  visit C rp (S f) (VNode C_DoWhile [c; b] co) =
  gbind (generate_stmt C rp f b true) (fun ss => gbind make_indent (fun i0 =>
  gbind (if truthy_v C c then visit C rp f c else gret []) (fun cs =>
  gret (s "do" ++ [10%N] ++ ss ++ i0 ++ s "while (" ++ cs ++ s ");")))).
Proof. reflexivity. Qed.
Lemma visit_for : forall f i c n b co,
  visit C rp (S f) (VNode C_For [i; c; n; b] co) =
  gbind (if truthy_v C i then visit C rp f i else gret []) (fun is' =>
  gbind (if truthy_v C c then gbind (visit C rp f c) (fun x => gret (s " " ++ x)) else gret []) (fun cs =>
  gbind (if truthy_v C n then gbind (visit C rp f n) (fun x => gret (s " " ++ x)) else gret []) (fun ns =>
  gbind (generate_stmt C rp f b true) (fun ss =>
  gret (s "for (" ++ is' ++ s ";" ++ cs ++ s ";" ++ ns ++ s ")" ++ [10%N] ++ ss))))).
Proof. reflexivity. Qed.
Lemma visit_return : forall f e co,
  visit C rp (S f) (VNode C_Return [e] co) =
  if truthy_v C e then gbind (visit C rp f e) (fun x => gret (s "return" ++ s " " ++ x ++ s ";")) else gret (s "return;").
Proof. reflexivity. Qed.
Lemma visit_compound : forall f bi co,
  visit C rp (S f) (VNode C_Compound [bi] co) =
  gbind make_indent (fun i0 => gbind (add_indent 2) (fun _ =>
  gbind (if truthy_v C bi then gbind (as_list C bi) (fun l => gbind (mapM (fun x => generate_stmt C rp f x false) l) (fun xs => gret (concat_str xs))) else gret []) (fun body =>
  gbind (add_indent (-2)) (fun _ => gbind make_indent (fun i2 =>
  gret (i0 ++ s "{" ++ [10%N] ++ body ++ i2 ++ s "}" ++ [10%N])))))).
Proof. reflexivity. Qed.

Lemma visit_label : forall f l b co,
  visit C rp (S f) (VNode C_Label [VStr l; b] co) =
  gbind (generate_stmt C rp f b false) (fun ss => gret (l ++ s ":" ++ [10%N] ++ ss)).
Proof. reflexivity. Qed.

Lemma truthy_emb : forall e, truthy_v C (embC e) = true.
Proof. destruct e; reflexivity. Qed.
Lemma truthy_embS : forall x, truthy_v C (embS x) = true.
Proof. destruct x; try reflexivity. apply truthy_emb. Qed.

Lemma visit_emb : forall e f lv, wf e -> 3 * size e <= f -> visit C rp f (embC e) lv = GOk (ptext e, lv).
Proof. intros e f lv He Hf. exact (visit_prints_e C rp e He f lv Hf). Qed.
Lemma visit_opt : forall o f lv, owf o -> 3 * osize o <= f ->
  (if truthy_v C (oembC o) then visit C rp f (oembC o) else gret []) lv = GOk (ot1 o, lv).
Proof. intros [e|] f lv Ho Hf; [|reflexivity]. cbn [oembC]. rewrite truthy_emb. exact (visit_emb e f lv Ho Hf). Qed.
Lemma visit_opt_sp : forall o f lv, owf o -> 3 * osize o <= f ->
  (if truthy_v C (oembC o) then gbind (visit C rp f (oembC o)) (fun x => gret (s " " ++ x)) else gret []) lv = GOk (ot2 o, lv).
Proof. intros [e|] f lv Ho Hf; [|reflexivity]. cbn [oembC]. rewrite truthy_emb, (gbind_ok (visit_emb e f lv Ho Hf)). reflexivity. Qed.

(* visit_Decl on `T x` / `T x = e`: _generate_decl, _generate_type on the TypeDecl, the initializer through _visit_expr *)
Lemma gen_tdx : forall f vs x em st, x <> [] -> generate_type C rp (S (S f)) (tdx vs x) [] em st =
  GOk (join_str (s " ") vs ++ (if em then s " " ++ x else []), st).
Proof.
  intros f vs x em st Hx. unfold tdx. rewrite gen_typedecl. destruct x as [|x0 xr]; [congruence|]. destruct em; reflexivity.
Qed.

Lemma visit_decl_eq : forall f x T init, visit C rp (S (S (S f))) (VNode C_Decl [VStr x; VList []; VList []; VList []; VList []; T; init; VNone] None) =
  gbind (gbind (gbind (generate_type C rp f T [] true) (fun t => gret ([] ++ [] ++ [] ++ t))) (fun x0 => gret (VStr x0))) (fun s0 =>
  gbind (gret s0) (fun s1 =>
  gbind (if truthy_v C init then gbind (as_str C s1) (fun a => gbind (visit_expr C rp (S f) init) (fun x1 => gret (VStr (a ++ s " = " ++ x1)))) else gret s1) (fun s2 =>
  as_str C s2))).
Proof. reflexivity. Qed.
(* without the wrapping of the text in VStr and back *)
Lemma visit_decl_init : forall f x T init st, visit C rp (S (S (S f))) (VNode C_Decl [VStr x; VList []; VList []; VList []; VList []; T; init; VNone] None) st =
  gbind (generate_type C rp f T [] true) (fun t =>
    if truthy_v C init then gbind (visit_expr C rp (S f) init) (fun x1 => gret (t ++ s " = " ++ x1)) else gret t) st.
Proof.
  intros f x T init st. rewrite visit_decl_eq. cbv beta iota delta [gbind gret as_str]. destruct (generate_type C rp f T [] true st) as [[t st']| |]; [|reflexivity..].
  destruct (truthy_v C init); [|reflexivity]. destruct (visit_expr C rp (S f) init st') as [[x1 st'']| |]; reflexivity.
Qed.

Lemma visit_declS : forall ty x i, x <> [] -> owf i -> forall fuel lv, 3 * osize i + 8 <= fuel ->
  visit C rp fuel (embS (SDecl ty x i)) lv = GOk (vis (SDecl ty x i) lv, lv).
Proof.
  intros ty x i Hx Hi fuel lv Hf. do 5 (destruct fuel as [|fuel]; [lia|]). cbn [embS].
  rewrite visit_decl_init, (gbind_ok (gen_tdx fuel (map snd ty) x true lv Hx)).
  destruct i as [e|]; cbn [oembC vis osize owf] in *; [|rewrite app_nil_r; reflexivity].
  rewrite truthy_emb, (gbind_ok (vexpr_emb C rp _ e _ lv (visit_emb e (S (S fuel)) lv Hi ltac:(lia)))). unfold gret, vxt, par. rewrite <- !app_assoc. reflexivity.
Qed.

Definition sprints (x: st) : Prop := swf x -> forall fuel lv, cost x <= fuel -> visit C rp fuel (embS x) lv = GOk (vis x lv, lv).

Lemma gst_of_vis : forall y, sprints y -> swf y -> forall fuel lv, cost y < fuel -> generate_stmt C rp fuel (embS y) true lv = GOk (gst lv y, lv).
Proof. intros y IH Hw fuel lv Hf. destruct fuel as [|f]; [lia|]. apply gs_run_t, IH; [exact Hw|lia]. Qed.

(* an item of a block is a declaration or a statement *)
Lemma item_prints : forall y, sprints y -> bwfd dok y -> forall fuel lv, cost y <= fuel -> visit C rp fuel (embS y) lv = GOk (vis y lv, lv).
Proof.
  intros y IH Hw fuel lv Hf. destruct y; try exact (IH Hw fuel lv Hf).
  destruct Hw as (_ & _ & _ & Hi & Hx). exact (visit_declS _ _ _ Hx Hi fuel lv Hf).
Qed.

Lemma vis_prints_s : forall x, sprints x.
Proof.
  induction x as [e| |o| | |l|c th el IHth IHel|c b IHb|b c IHb|i c nx b IHb|items IHitems|lb b IHb|ty dx di] using st_nested_ind;
    intros Hw fuel lv Hf; cbn [swfd] in Hw; cbn [cost] in Hf; (destruct fuel as [|fu]; [lia|]); cbn [embS].
  - apply visit_emb; [exact Hw|lia].
  - reflexivity.
  - rewrite visit_return. destruct o as [e|]; cbn [oembC osize owf] in *; [|reflexivity].
    rewrite truthy_emb, (gbind_ok (visit_emb e fu lv Hw ltac:(lia))). reflexivity.
  - reflexivity.
  - reflexivity.
  - reflexivity.
  - destruct Hw as (Hc & Hth & Hel). rewrite visit_if, truthy_emb, (gbind_ok (visit_emb c fu lv Hc ltac:(lia))), (gbind_ok (gst_of_vis th IHth Hth fu lv ltac:(lia))).
    destruct el as [el|]; [|reflexivity]. rewrite truthy_embS, (gbind_ok (make_indent_eq lv)), (gbind_ok (gst_of_vis el IHel (proj2 Hel) fu lv ltac:(lia))). reflexivity.
  - destruct Hw as (Hc & Hb). rewrite visit_while, truthy_emb, (gbind_ok (visit_emb c fu lv Hc ltac:(lia))), (gbind_ok (gst_of_vis b IHb Hb fu lv ltac:(lia))). reflexivity.
  - destruct Hw as (Hb & Hc). rewrite visit_do, (gbind_ok (gst_of_vis b IHb Hb fu lv ltac:(lia))), (gbind_ok (make_indent_eq lv)), truthy_emb, (gbind_ok (visit_emb c fu lv Hc ltac:(lia))). reflexivity.
  - destruct Hw as (Hi & Hc & Hnx & Hb).
    rewrite visit_for, (gbind_ok (visit_opt i fu lv Hi ltac:(lia))), (gbind_ok (visit_opt_sp c fu lv Hc ltac:(lia))), (gbind_ok (visit_opt_sp nx fu lv Hnx ltac:(lia))),
      (gbind_ok (gst_of_vis b IHb Hb fu lv ltac:(lia))). reflexivity.
  - (* block: the items are printed one level in, each by _generate_stmt without add_indent *)
    rewrite visit_compound, (gbind_ok (make_indent_eq lv)), (indented _ _ _ _ lv (concat_str (map (gs0 (lv + 2)) items))), (gbind_ok (make_indent_eq lv)); [reflexivity|].
    assert (HM: mapM (fun x => generate_stmt C rp fu x false) (map embS items) (lv + 2)%Z = GOk (map (gs0 (lv + 2)) items, (lv + 2)%Z)).
    { apply mapM_const_state. intros y Hy. pose proof (in_list_sum _ cost items y Hy) as Hcy. destruct fu as [|f]; [lia|].
      apply gs_run_f, item_prints; [exact (proj1 (Forall_forall _ _) IHitems y Hy)|exact (all_in _ (bwfd dok) items y Hw Hy)|lia]. }
    destruct items as [|y0 r0]; [reflexivity|]. exact (gbind_prints _ (fun xs => gret (concat_str xs)) _ _ _ HM eq_refl).
  - destruct fu as [|f]; [lia|]. rewrite visit_label, (gbind_ok (gs_run_f f b lv (vis b lv) (IHb Hw f lv ltac:(lia)))). reflexivity.
  - contradiction.
Qed.

Theorem vis_prints : forall n x, ssize x <= n -> swf x -> forall fuel lv, cost x <= fuel -> visit C rp fuel (embS x) lv = GOk (vis x lv, lv).
Proof. intros n x _. apply vis_prints_s. Qed.

Theorem gst_prints : forall x, swf x -> forall fuel lv, cost x < fuel -> generate_stmt C rp fuel (embS x) true lv = GOk (gst lv x, lv).
Proof. intros x. exact (gst_of_vis x (vis_prints_s x)). Qed.
End GS.

Definition nn (c: N) : bool := negb (N.eqb c 10).
Definition despace2 (t: str) : str := filter nn (despace t).
Lemma despace2_app : forall a b, despace2 (a ++ b) = despace2 a ++ despace2 b.
Proof. intros a b. unfold despace2. rewrite despace_app. apply filter_app. Qed.
Lemma despace2_ind : forall lv, despace2 (ind lv) = [].
Proof. intros lv. unfold ind, despace2, despace. induction (Z.to_nat lv) as [|n IH]; [reflexivity|]. cbn [repeat filter]. exact IH. Qed.

Definition oall (Q: ex -> Prop) (o: option ex) : Prop := match o with Some e => Q e | None => True end.
Fixpoint sexprs (Q: ex -> Prop) (x: st) : Prop :=
  match x with
  | SExpr e => Q e
  | SReturn o => oall Q o
  | SGoto l => despace2 l = l
  | SIf c th el => Q c /\ sexprs Q th /\ match el with Some e => sexprs Q e | None => True end
  | SWhile c b | SDo b c => Q c /\ sexprs Q b
  | SFor i c n b => oall Q i /\ oall Q c /\ oall Q n /\ sexprs Q b
  | SLabel l b => despace2 l = l /\ sexprs Q b
  | SBlock items => (fix al (l: list st) : Prop := match l with [] => True | y :: r => sexprs Q y /\ al r end) items
  | SDecl ty x i => despace2 x = x /\ Forall (fun kv : kind * str => despace2 (snd kv) = snd kv) ty /\ oall Q i
  | _ => True
  end.

(* an expression whose spellings contain neither blanks nor newlines *)
Definition eok (rp: bool) (e: ex) : Prop := wf e /\ ids_nb e /\ filter nn (spell (xt rp e)) = spell (xt rp e).
Lemma eok_text : forall rp e, eok rp e -> despace2 (ptext rp e) = spell (xt rp e).
Proof. intros rp e (Hw & Hn & Hl). unfold despace2. rewrite (ptext_spelled rp e Hw Hn). exact Hl. Qed.

(* the statement's own text: what visit printed, plus the `;` that _generate_stmt adds to an expression *)
Definition vt (y: st) (v: str) : str := if isexpr y then v ++ s ";" else v.
Lemma wrapg_text : forall pre y v, despace2 pre = [] -> despace2 (wrapg pre y v) = despace2 (vt y v).
Proof.
  intros pre y v Hp. unfold wrapg, vt. destruct (isblock y) eqn:Eb; [destruct y; try discriminate Eb; reflexivity|].
  rewrite despace2_app, Hp. cbn [app]. destruct (isexpr y); [rewrite !despace2_app; change (despace2 nl) with (@nil N); rewrite app_nil_r; reflexivity|].
  destruct (isif y); [reflexivity|]. rewrite despace2_app. change (despace2 nl) with (@nil N). apply app_nil_r.
Qed.

Lemma oall_text : forall rp o, oall (eok rp) o -> despace2 (ot1 rp o) = spell (oxt rp o).
Proof. intros rp [e|] H; [apply eok_text; exact H|reflexivity]. Qed.
Lemma oall_text_sp : forall rp o, oall (eok rp) o -> despace2 (ot2 rp o) = spell (oxt rp o).
Proof. intros rp [e|] H; [unfold ot2; rewrite despace2_app; cbn [oxt]; rewrite (eok_text rp e H); reflexivity|reflexivity]. Qed.
Lemma concat_text : forall X (f: X -> str) (g: X -> list (kind * str)) l, (forall y, In y l -> despace2 (f y) = spell (g y)) ->
  despace2 (concat_str (map f l)) = spell (concat (map g l)).
Proof.
  intros X f g l. induction l as [|y r IH]; intros H; [reflexivity|]. cbn [map concat_str concat].
  rewrite despace2_app, spell_app, (H y (or_introl eq_refl)), IH by (intros z Hz; apply H; right; exact Hz). reflexivity.
Qed.
Lemma despace2_spell : forall ty, Forall (fun kv : kind * str => despace2 (snd kv) = snd kv) ty -> despace2 (spell ty) = spell ty.
Proof. intros ty H. induction H as [|[k v] r Hv _ IH]; [reflexivity|]. cbn [snd] in Hv. rewrite spell_cons, despace2_app, Hv, IH. reflexivity. Qed.
Lemma despace2_join : forall ty, Forall (fun kv : kind * str => despace2 (snd kv) = snd kv) ty ->
  despace2 (join_str (s " ") (map snd ty)) = spell ty.
Proof. intros ty H. unfold despace2 at 1. rewrite despace_join_blank. exact (despace2_spell ty H). Qed.

(* pushes [despace2] and [spell] through [++] and [::], so that both sides become concatenations of spellings *)
Ltac gtext := rewrite ?despace2_app, ?despace2_ind; repeat (rewrite ?spell_cons; rewrite ?spell_app).

Definition sspelled rp (x: st) : Prop := sexprs (eok rp) x -> forall lv, despace2 (vt x (vis rp x lv)) = spell (stoks rp x).

(* _generate_stmt adds indentation and newlines only *)
Lemma wrapg_tokens : forall rp y, sspelled rp y -> sexprs (eok rp) y -> forall L L', despace2 (wrapg (ind L') y (vis rp y L)) = spell (stoks rp y).
Proof. intros rp y IH Hy L L'. rewrite wrapg_text by apply despace2_ind. exact (IH Hy L). Qed.

Lemma vis_spelled : forall rp x, sspelled rp x.
Proof.
  intros rp. induction x as [e| |o| | |l|c th el IHth IHel|c b IHb|b c IHb|i c nx b IHb|items IHitems|lb b IHb|ty dx di] using st_nested_ind;
    intros Hx lv; cbn [sexprs] in Hx; unfold vt; cbn [isexpr stoks vis]; unfold kw.
  - gtext. rewrite (eok_text rp e Hx). reflexivity.
  - reflexivity.
  - destruct o as [e|]; [|reflexivity]. cbn [oxt]. gtext. rewrite (eok_text rp e Hx). reflexivity.
  - reflexivity.
  - reflexivity.
  - gtext. rewrite Hx. reflexivity.
  - destruct Hx as (Hc & Hth & Hel). destruct el as [el|]; gtext; rewrite (eok_text rp c Hc), (wrapg_tokens rp th IHth Hth);
      [rewrite (wrapg_tokens rp el IHel Hel)|rewrite (app_nil_r (spell _))]; reflexivity.
  - destruct Hx as (Hc & Hb). gtext. rewrite (eok_text rp c Hc), (wrapg_tokens rp b IHb Hb). reflexivity.
  - destruct Hx as (Hc & Hb). gtext. rewrite (eok_text rp c Hc), (wrapg_tokens rp b IHb Hb). reflexivity.
  - destruct Hx as (Hi & Hc & Hnx & Hb). gtext. rewrite (oall_text rp i Hi), (oall_text_sp rp c Hc), (oall_text_sp rp nx Hnx), (wrapg_tokens rp b IHb Hb). reflexivity.
  - gtext. rewrite (concat_text _ _ (stoks rp) items); [reflexivity|].
    intros y Hy. apply wrapg_tokens; [exact (proj1 (Forall_forall _ _) IHitems y Hy)|exact (all_in _ (sexprs (eok rp)) items y Hx Hy)].
  - destruct Hx as (Hl & Hb). gtext. rewrite Hl, (wrapg_tokens rp b IHb Hb). reflexivity.
  - destruct Hx as (Hdx & Hty & Hdi). unfold dtoks. gtext. rewrite (despace2_join ty Hty), Hdx, <- !app_assoc. change (despace2 (s " ")) with (@nil N). cbn [app]. do 2 f_equal.
    destruct di as [e|]; [|reflexivity]. unfold argt, vx. destruct (iscomma e); gtext; rewrite ?spell_parkv, (eok_text rp e Hdi); reflexivity.
Qed.

Theorem vis_tokens : forall rp n x, ssize x <= n -> sexprs (eok rp) x -> forall lv, despace2 (vt x (vis rp x lv)) = spell (stoks rp x).
Proof. intros rp n x _. apply vis_spelled. Qed.

Theorem gst_tokens : forall rp x, sexprs (eok rp) x -> forall lv, despace2 (gst rp lv x) = spell (stoks rp x).
Proof. intros rp x Hx lv. exact (wrapg_tokens rp x (vis_spelled rp x) Hx lv (lv + 2)%Z). Qed.

(* the theorems apply to something *)
Definition ex_s : st :=
  SFor (Some (XAsg (s2l "=") (XId (s2l "i")) (XConst K_INT_CONST_DEC (s2l "0") (s2l "int")))) (Some (XBin (s2l "<") (XId (s2l "i")) (XId (s2l "n")))) (Some (XPost (s2l "++") (XId (s2l "i"))))
    (SBlock [SIf (XCall (XId (s2l "f")) [XId (s2l "i")]) (SIf (XId (s2l "a")) (SReturn (Some (XId (s2l "i")))) (Some SBreak)) (Some (SDo (SBlock [SExpr (XPre (s2l "--") (XId (s2l "n"))); SBlock []]) (XId (s2l "n"))));
             SGoto (s2l "out")]).
Example statement_example :
  swf ex_s /\ exists t, generate_stmt nat false 80 (embS nat ex_s) true 0%Z = GOk (t, 0%Z) /\ despace2 t = spell (stoks false ex_s) /\
  t = s2l "  for (i = 0; i < n; i++)
{
  if (f(i))
    if (a)
    return i;
  else
    break;
  else
    do
  {
    --n;
    {
    }
  }
  while (n);
  goto out;
}

".
Proof. split; [cbn; repeat split; solve [reflexivity | discriminate | lia]|]. eexists. split; [vm_compute; reflexivity|split; vm_compute; reflexivity]. Qed.

(* labels: `again: if (a) in: a++;  out: ;` in a block *)
Definition ex_l : st :=
  SBlock [SLabel (s2l "again") (SIf (XId (s2l "a")) (SLabel (s2l "in") (SExpr (XPost (s2l "++") (XId (s2l "a"))))) None); SLabel (s2l "out") SEmpty].
Example label_example :
  swf ex_l /\ exists t, generate_stmt nat false 80 (embS nat ex_l) true 0%Z = GOk (t, 0%Z) /\ despace2 t = spell (stoks false ex_l) /\
  t = s2l "{
  again:
  if (a)
    in:
  a++;


  out:
  ;

}
".
Proof. split; [cbn; repeat split; solve [reflexivity | discriminate | lia]|]. eexists. split; [vm_compute; reflexivity|split; vm_compute; reflexivity]. Qed.

(* the two instances: statements without declarations, and statements whose blocks declare objects *)
Theorem gst_prints_nodecl : forall (C: Type) rp (x: st), swf x -> forall fuel lv, cost x < fuel ->
  generate_stmt C rp fuel (embS C x) true lv = GOk (gst rp lv x, lv).
Proof. intros C rp. exact (gst_prints C rp false). Qed.
Theorem gst_prints_decls : forall (C: Type) rp (x: st), swfD x -> forall fuel lv, cost x < fuel ->
  generate_stmt C rp fuel (embS C x) true lv = GOk (gst rp lv x, lv).
Proof. intros C rp. exact (gst_prints C rp true). Qed.

(* declarations in blocks: `{ int x = 1; unsigned long y; y = x + 2; { char c = (x, y); } }` *)
Definition ex_d : st :=
  SBlock [SDecl [(K_INT, s2l "int")] (s2l "x") (Some (XConst K_INT_CONST_DEC (s2l "1") (s2l "int")));
          SDecl [(K_UNSIGNED, s2l "unsigned"); (K_LONG, s2l "long")] (s2l "y") None;
          SExpr (XAsg (s2l "=") (XId (s2l "y")) (XBin (s2l "+") (XId (s2l "x")) (XConst K_INT_CONST_DEC (s2l "2") (s2l "int"))));
          SBlock [SDecl [(K_CHAR, s2l "char")] (s2l "c") (Some (XComma [XId (s2l "x"); XId (s2l "y")]))]].
Example decl_example :
  swfD ex_d /\ exists t, generate_stmt nat false 80 (embS nat ex_d) true 0%Z = GOk (t, 0%Z) /\ despace2 t = spell (stoks false ex_d) /\
  t = s2l "{
  int x = 1;
  unsigned long y;
  y = x + 2;
  {
    char c = (x, y);
  }
}
".
Proof. split; [cbn; repeat split; solve [reflexivity | discriminate | lia | repeat constructor]|]. eexists. split; [vm_compute; reflexivity|split; vm_compute; reflexivity]. Qed.

(* the whole-parser model, started on exactly these tokens (followed by one more `;`) with its initial scope stack,
   returns the tree the text was generated from, consumes the 28 tokens and is back at the file scope *)
From PV Require ParserBase ParserMain.
Definition ex_d_state : ParserBase.pstate nat :=
  ParserMain.init_pstate nat (map (fun kv => ParserBase.PTok nat (fst kv) (snd kv) 0 0) (stoks false ex_d ++ [(K_SEMI, s2l ";")])) 0 0.
Example decl_example_parsed :
  StreamLib.NoTD (ParserBase.scopes nat ex_d_state) /\
  match ParserMain.p_statement nat 100 ex_d_state with
  | ParserBase.Ok (N, s') => RoundTrip.strip N = embs ex_d /\ ParserBase.idx nat s' = length (stoks false ex_d) /\ ParserBase.scopes nat s' = [[]]
  | _ => False
  end.
Proof. split; [split; [discriminate|repeat constructor]|]. vm_compute. repeat split. Qed.
Example decl_example_both :
  swfD ex_d /\ (exists t, generate_stmt nat false 80 (embS nat ex_d) true 0%Z = GOk (t, 0%Z) /\ despace2 t = spell (stoks false ex_d)) /\
  match ParserMain.p_statement nat 100 ex_d_state with ParserBase.Ok (N, s') => RoundTrip.strip N = embs ex_d | _ => False end.
Proof.
  destruct decl_example as [H [t [H1 [H2 _]]]]. split; [exact H|]. split; [exists t; split; assumption|].
  destruct decl_example_parsed as [_ HP]. revert HP. destruct (ParserMain.p_statement nat 100 ex_d_state) as [[N s']| | |]; intros HP; [exact (proj1 HP)|contradiction..].
Qed.
