(* C15 at tree level: evaluating the text that Node.__repr__ produces gives back the same tree
   (same classes, same field values, recursively), with coord = None.  For every well-formed
   tree, every depth, every string content. *)
From Coq Require Import List NArith Bool Arith Lia.
Import ListNotations.
From PV Require Import Regex Base PyRepr PyEval AstDefs AstSpec AstImpl NodeModel PyEvalTree RegexLemmas NodeProofs ReprProofs ReprRoundtrip.
Open Scope nat_scope.

Definition all_sp (p: str) : Prop := Forall (fun c => c = 32%N) p.

Lemma replace_nl_app : forall pad a b, replace_nl pad (a ++ b) = replace_nl pad a ++ replace_nl pad b.
Proof.
  intros pad a b. induction a as [|c a IH]; cbn [app replace_nl]; [reflexivity|].
  destruct (N.eqb c 10); rewrite IH; cbn [app]; [rewrite <- app_assoc|]; reflexivity.
Qed.
Lemma replace_nl_id : forall pad s, ~ In 10%N s -> replace_nl pad s = s.
Proof.
  intros pad s. induction s as [|c s IH]; intros H; cbn [replace_nl]; [reflexivity|].
  destruct (N.eqb_spec c 10) as [->|_]; [destruct H; left; reflexivity|].
  rewrite IH; [reflexivity|]. intros Hi. apply H. right. exact Hi.
Qed.
Lemma spaces_no_nl : forall k, ~ In 10%N (spaces k).
Proof. intros k H. apply repeat_spec in H. discriminate. Qed.
Lemma replace_nl_spaces : forall a b s, replace_nl (spaces a) (replace_nl (spaces b) s) = replace_nl (spaces (a + b)) s.
Proof.
  intros a b s. induction s as [|c s IH]; cbn [replace_nl]; [reflexivity|].
  destruct (N.eqb c 10) eqn:E; cbn [replace_nl]; [|rewrite E, IH; reflexivity].
  rewrite N.eqb_refl, replace_nl_app, IH, (replace_nl_id _ (spaces b)) by apply spaces_no_nl.
  unfold spaces. rewrite repeat_app, <- app_assoc. reflexivity.
Qed.
Lemma replace_nl_nil : forall s, replace_nl [] s = s.
Proof. induction s as [|c s IH]; cbn [replace_nl]; [reflexivity|]. rewrite IH. destruct (N.eqb_spec c 10) as [->|_]; reflexivity. Qed.

Definition Rtoks (s: str) (l: list rtok) : Prop := exists n, rtoks n s = Some l.

Lemma Rtoks_nil : Rtoks [] [].
Proof. exists 1. reflexivity. Qed.

Lemma Rtoks_ws : forall c r l, is_ws c = true -> Rtoks r l -> Rtoks (c :: r) l.
Proof. intros c r l Hc [n Hn]. exists (S n). cbn [rtoks]. rewrite Hc. exact Hn. Qed.

Lemma Rtoks_blank : forall w r l, forallb is_ws w = true -> Rtoks r l -> Rtoks (w ++ r) l.
Proof.
  induction w as [|c w IH]; intros r l Hw H; [exact H|]. cbn [forallb] in Hw. apply andb_true_iff in Hw.
  apply Rtoks_ws; [apply Hw|]. apply IH; [apply Hw|exact H].
Qed.

Lemma blank_spaces : forall k, forallb is_ws (spaces k) = true.
Proof. induction k as [|k IH]; [reflexivity|exact IH]. Qed.

Lemma blank_replace_nl : forall k w, forallb is_ws w = true -> forallb is_ws (replace_nl (spaces k) w) = true.
Proof.
  intros k. induction w as [|c w IH]; intros H; [reflexivity|]. cbn [forallb replace_nl] in *.
  apply andb_true_iff in H. destruct H as [Hc Hw].
  destruct (N.eqb c 10); cbn [forallb]; [rewrite forallb_app, blank_spaces|rewrite Hc]; exact (IH Hw).
Qed.

Definition punct_of (c: N) : option rtok :=
  if N.eqb c 40 then Some TLP else if N.eqb c 41 then Some TRP else if N.eqb c 91 then Some TLB
  else if N.eqb c 93 then Some TRB else if N.eqb c 44 then Some TComma else if N.eqb c 61 then Some TEq else None.

Lemma Rtoks_punct : forall c t r l, punct_of c = Some t -> Rtoks r l -> Rtoks (c :: r) (t :: l).
Proof.
  intros c t r l Hp [n Hn]. exists (S n). unfold punct_of in Hp.
  repeat match type of Hp with (if N.eqb c ?k then _ else _) = _ =>
    destruct (N.eqb_spec c k) as [->|_]; [injection Hp as <-; cbn; rewrite Hn; reflexivity|] end.
  discriminate.
Qed.

Lemma Rtoks_str : forall pr s rest l, Forall (fun c => (c < 4294967296)%N) s ->
  Rtoks rest l -> Rtoks (py_repr_with pr s ++ rest) (TStr s :: l).
Proof.
  intros pr s rest l Hs [n Hn]. exists (S n).
  pose proof (unrepr_repr_str pr s rest Hs) as Hu.
  unfold py_repr_with in *. cbn [app] in *. unfold unrepr_str in Hu. cbn [rtoks].
  destruct (repr_quote_cases s) as [Hq|Hq]; rewrite Hq in *; cbn in Hu |- *; rewrite Hu, Hn; reflexivity.
Qed.

Definition valid_name (nm: str) : bool :=
  match nm with c :: _ => is_name_start c && forallb is_name_char nm | [] => false end.
Definition rest_ok (rest: str) : Prop := match rest with [] => True | c :: _ => is_name_char c = false end.

Lemma rest_ok_cons : forall c r, is_name_char c = false -> rest_ok (c :: r).
Proof. intros c r H. exact H. Qed.

Lemma span_name_app : forall nm rest, forallb is_name_char nm = true -> rest_ok rest -> span_name (nm ++ rest) = (nm, rest).
Proof.
  induction nm as [|c nm IH]; intros rest Hn Hr.
  - cbn [app]. destruct rest as [|d rest]; [reflexivity|]. cbn [span_name]. cbn in Hr. rewrite Hr. reflexivity.
  - cbn [forallb] in Hn. apply andb_true_iff in Hn. destruct Hn as [Hc Hn].
    cbn [app span_name]. rewrite Hc, (IH rest Hn Hr). reflexivity.
Qed.

Lemma name_start_other : forall c, is_name_start c = true ->
  is_ws c = false /\ N.eqb c 40 = false /\ N.eqb c 41 = false /\ N.eqb c 91 = false /\ N.eqb c 93 = false /\
  N.eqb c 44 = false /\ N.eqb c 61 = false /\ N.eqb c 39 = false /\ N.eqb c 34 = false.
Proof.
  intros c H. unfold is_ws.
  repeat match goal with |- context [N.eqb c ?k] =>
    destruct (N.eqb_spec c k) as [->|_]; [vm_compute in H; discriminate|] end.
  repeat split; reflexivity.
Qed.

Lemma Rtoks_name : forall nm rest l, valid_name nm = true -> rest_ok rest -> Rtoks rest l -> Rtoks (nm ++ rest) (TName nm :: l).
Proof.
  intros nm rest l Hv Hr [n Hn]. exists (S n). destruct nm as [|c nm]; [discriminate|].
  unfold valid_name in Hv. apply andb_true_iff in Hv. destruct Hv as [Hc Hall].
  destruct (name_start_other c Hc) as (H1 & H2 & H3 & H4 & H5 & H6 & H7 & H8 & H9).
  pose proof (span_name_app (c :: nm) rest Hall Hr) as Hsp.
  change ((c :: nm) ++ rest) with (c :: (nm ++ rest)) in *. cbn [rtoks].
  rewrite H1, H2, H3, H4, H5, H6, H7, H8, H9. cbn [orb]. rewrite Hc, Hsp, Hn. reflexivity.
Qed.

Lemma decode1_shorter : forall q s o rest, decode1 q s = Some (o, rest) -> length rest < length s.
Proof.
  intros q s o rest H. unfold decode1 in H.
  repeat match type of H with match ?x with _ => _ end = _ => destruct x; try discriminate end.
  all: injection H as _ <-; cbn [length]; lia.
Qed.

Lemma unrepr_body_shorter : forall n q s d t, unrepr_body n q s = Some (d, t) -> length t < length s.
Proof.
  induction n as [|n IH]; intros q s d t H; [discriminate|]. cbn [unrepr_body] in H.
  destruct (decode1 q s) as [[[c|] rest]|] eqn:E; [| |discriminate].
  - destruct (unrepr_body n q rest) as [[d' t']|] eqn:E2; [|discriminate]. injection H as _ <-.
    apply IH in E2. apply decode1_shorter in E. lia.
  - injection H as _ <-. apply decode1_shorter in E. exact E.
Qed.

Lemma span_name_shorter : forall s a b, span_name s = (a, b) -> length b <= length s.
Proof.
  induction s as [|c s IH]; intros a b H; cbn [span_name] in H.
  - injection H as _ <-. cbn. lia.
  - destruct (is_name_char c).
    + destruct (span_name s) as [a' b'] eqn:E. injection H as _ <-. specialize (IH _ _ eq_refl). cbn. lia.
    + injection H as _ <-. lia.
Qed.

Lemma rtoks_fuel : forall n s l, rtoks n s = Some l -> forall m, length s < m -> rtoks m s = Some l.
Proof.
  induction n as [|n IH]; intros s l H m Hm; [discriminate|].
  destruct m as [|m]; [lia|]. destruct s as [|c r]; [exact H|]. cbn [length] in Hm. cbn [rtoks] in *.
  assert (K: forall t rest, length rest <= length r ->
             match rtoks n rest with Some l0 => Some (t :: l0) | None => None end = Some l ->
             match rtoks m rest with Some l0 => Some (t :: l0) | None => None end = Some l).
  { intros t rest Hl Hr. destruct (rtoks n rest) as [l0|] eqn:E; [|discriminate]. rewrite (IH _ _ E m) by lia. exact Hr. }
  repeat match goal with
  | H: (if ?b then _ else _) = Some _ |- (if ?b then _ else _) = Some _ => destruct b eqn:?
  end; try (apply K; [lia|exact H]).
  - apply (IH _ _ H). lia.
  - destruct (unrepr_body (length r) c r) as [[v rest]|] eqn:Eu; [|discriminate].
    apply unrepr_body_shorter in Eu. apply K; [lia|exact H].
  - (* the name is not empty, so the rest is shorter *)
    cbn [span_name] in *. unfold is_name_char in *.
    match goal with Hs: is_name_start c = true |- _ => rewrite Hs in * end. cbn [orb] in *.
    destruct (span_name r) as [a b] eqn:Er. apply span_name_shorter in Er. apply K; [exact Er|exact H].
  - discriminate.
Qed.

(* the text s, re-indented by any amount and followed by any text that does not start with a name
   character, tokenizes to ts *)
Definition Tk (s: str) (ts: list rtok) : Prop :=
  forall k rest l, rest_ok rest -> Rtoks rest l -> Rtoks (replace_nl (spaces k) s ++ rest) (ts ++ l).

Lemma Tk_nil : Tk [] [].
Proof. intros k rest l _ H. exact H. Qed.

Lemma Tk_app : forall a ta b tb, Tk a ta -> Tk b tb -> rest_ok b -> Tk (a ++ b) (ta ++ tb).
Proof.
  intros a ta b tb Ha Hb Hok k rest l Hr H. rewrite replace_nl_app, <- !app_assoc.
  apply Ha; [|apply Hb; assumption].
  destruct b as [|c b]; [exact Hr|]. cbn [replace_nl]. destruct (N.eqb_spec c 10) as [->|_]; exact Hok.
Qed.

Lemma Tk_punct : forall c t b tb, punct_of c = Some t -> Tk b tb -> Tk (c :: b) (t :: tb).
Proof.
  intros c t b tb Hc Hb k rest l Hr H. cbn [replace_nl].
  destruct (N.eqb_spec c 10) as [->|_]; [discriminate|]. apply (Rtoks_punct _ _ _ _ Hc), Hb; assumption.
Qed.

Lemma Tk_blank : forall w b tb, forallb is_ws w = true -> Tk b tb -> Tk (w ++ b) tb.
Proof.
  intros w b tb Hw Hb k rest l Hr H. rewrite replace_nl_app, <- app_assoc.
  apply Rtoks_blank; [apply blank_replace_nl, Hw|apply Hb; assumption].
Qed.

Lemma Tk_indent : forall j s ts, Tk s ts -> Tk (replace_nl (spaces j) s) ts.
Proof. intros j s ts H k rest l. rewrite replace_nl_spaces. apply H. Qed.

(* facts about the class table, checked by computation on the generated AstImpl.v *)
Lemma on_all_cls : forall (A: Type) (f g: cls -> A), map f all_cls = map g all_cls -> forall c, f c = g c.
Proof.
  intros A f g H c. pose proof (map_nth_error f _ _ (all_cls_nth c)) as Hf.
  rewrite H, (map_nth_error g _ _ (all_cls_nth c)) in Hf. congruence.
Qed.

Fixpoint nodupb (l: list str) : bool := match l with [] => true | x :: r => negb (mem_str x r) && nodupb r end.

Definition cls_ok (c: cls) : bool :=
  match impl_of c with
  | None => false
  | Some ci => str_eqb (ci_name ci) (cls_name c) && valid_name (ci_name ci) && forallb valid_name (ci_slots ci)
               && nodupb (ci_slots ci) && (2 <=? length (ci_slots ci))
  end.
Lemma all_cls_ok : forall c, cls_ok c = true.
Proof. apply (on_all_cls _ cls_ok (fun _ => true)). vm_compute. reflexivity. Qed.
Lemma cls_of_name_ok : forall c, cls_of_name (cls_name c) = Some c.
Proof. apply (on_all_cls _ (fun c => cls_of_name (cls_name c)) Some). vm_compute. reflexivity. Qed.

Lemma nodupb_NoDup : forall l, nodupb l = true -> NoDup l.
Proof.
  induction l as [|x l IH]; intros H; [constructor|]. cbn [nodupb] in H. apply andb_true_iff in H. destruct H as [H1 H2].
  constructor; [|apply IH; exact H2]. intros Hin. apply negb_true_iff, not_true_iff_false in H1. apply H1.
  apply existsb_exists. exists x. split; [exact Hin|apply str_eqb_refl].
Qed.

Record cls_facts (c: cls) (ci: class_impl) : Prop := {
  cf_name : ci_name ci = cls_name c;
  cf_vname : valid_name (ci_name ci) = true;
  cf_vslots : forallb valid_name (ci_slots ci) = true;
  cf_nodup : NoDup (ci_slots ci);
  cf_len : 2 <= length (ci_slots ci) }.

Lemma cls_facts_of : forall c, exists ci, impl_of c = Some ci /\ cls_facts c ci.
Proof.
  intros c. pose proof (all_cls_ok c) as H. unfold cls_ok in H.
  destruct (impl_of c) as [ci|]; [|discriminate]. exists ci. split; [reflexivity|].
  repeat (apply andb_true_iff in H; destruct H as [H ?]).
  constructor; [apply str_eqb_iff; assumption|assumption|assumption|apply nodupb_NoDup; assumption|apply Nat.leb_le; assumption].
Qed.

Lemma name_no_nl : forall nm, valid_name nm = true -> ~ In 10%N nm.
Proof.
  intros [|c nm] H Hin; [discriminate|]. apply andb_true_iff in H. destruct H as [_ H].
  rewrite forallb_forall in H. apply H in Hin. discriminate.
Qed.

Lemma Tk_name : forall nm, valid_name nm = true -> Tk nm [TName nm].
Proof. intros nm Hv k rest l Hr H. rewrite replace_nl_id by apply name_no_nl, Hv. apply Rtoks_name; assumption. Qed.

Lemma index_of_app : forall x pre r, ~ In x pre -> index_of x (pre ++ x :: r) = Some (length pre).
Proof.
  intros x pre r. induction pre as [|y pre IH]; intros H; cbn [app index_of length].
  - rewrite str_eqb_refl. reflexivity.
  - destruct (str_eqb x y) eqn:E; [apply str_eqb_iff in E; subst; destruct H; left; reflexivity|].
    rewrite IH; [reflexivity|]. intros Hi. apply H. right. exact Hi.
Qed.

Section TP.
Variable P : Type.
Variable pr : N -> bool.

Fixpoint strip (v: value P) : value P :=
  match v with
  | VNone => VNone
  | VStr s => VStr s
  | VList l => VList (map strip l)
  | VNode c fs _ => VNode c (map strip fs) None
  end.

Definition nfields (ci: class_impl) : list str := firstn (length (ci_slots ci) - 2) (ci_slots ci).

(* slot names are distinct, so the attribute named by the slot at some position is the value at that position *)
Lemma get_field_at : forall ci pre n post fpre (v: value P) fss, NoDup (ci_slots ci) -> ci_slots ci = pre ++ n :: post ->
  length pre = length fpre -> get_field P ci (fpre ++ v :: fss) n = Some v.
Proof.
  intros ci pre n post fpre v fss Hnd Hs Hl. unfold get_field. rewrite Hs in *. rewrite index_of_app.
  - rewrite Hl, nth_error_app2 by lia. rewrite Nat.sub_diag. reflexivity.
  - apply NoDup_remove_2 in Hnd. intros Hi. apply Hnd, in_or_app. left. exact Hi.
Qed.

(* well-formed trees of depth at most f: string characters are code points; a node has one value per field *)
Fixpoint wf (f: nat) (v: value P) : Prop :=
  match f with
  | O => False
  | S f' =>
    match v with
    | VNone => True
    | VStr s => Forall (fun c => (c < 4294967296)%N) s
    | VList l => Forall (wf f') l
    | VNode c fs _ => Forall (wf f') fs /\
                      match impl_of c with Some ci => length fs + 2 = length (ci_slots ci) | None => False end
    end
  end.

Lemma wf_node : forall f c fs co, wf (S f) (VNode c fs co) ->
  exists ci, impl_of c = Some ci /\ cls_facts c ci /\ Forall (wf f) fs /\ length (nfields ci) = length fs.
Proof.
  intros f c fs co [Hfs Hlen]. destruct (cls_facts_of c) as [ci [Hci F]]. rewrite Hci in Hlen.
  exists ci. split; [exact Hci|]. split; [exact F|]. split; [exact Hfs|]. unfold nfields. rewrite firstn_length. pose proof (cf_len _ _ F). lia.
Qed.

(* the tokens of items separated by commas; first = false puts a comma in front as well *)
Fixpoint ftoks (first: bool) (l: list (list rtok)) : list rtok :=
  match l with [] => [] | x :: r => (if first then [] else [TComma]) ++ x ++ ftoks false r end.

Fixpoint toks (f: nat) (v: value P) : list rtok :=
  match f with
  | O => []
  | S f' =>
    match v with
    | VNone => [TName s_None_tok]
    | VStr s => [TStr s]
    | VList l => TLB :: ftoks true (map (toks f') l) ++ [TRB]
    | VNode c fs _ =>
      match impl_of c with
      | None => []
      | Some ci => TName (ci_name ci) :: TLP ::
                   ftoks true (map (fun nv => TName (fst nv) :: TEq :: toks f' (snd nv)) (combine (nfields ci) fs)) ++ [TRP]
      end
    end
  end.

(* the field printer of Node.__repr__, named *)
Definition fld (f: nat) (ci: class_impl) (fs: list (value P)) (name: str) : str :=
  match get_field P ci fs name with
  | Some fv => name ++ [61%N] ++ replace_nl (32%N :: 32%N :: spaces (length name + length (ci_name ci))) (repr_value P pr f fv)
  | None => []
  end.
Definition go_fields (f: nat) (ci: class_impl) (fs: list (value P)) : bool -> list str -> str :=
  fix go (first: bool) (ns: list str) : str :=
  match ns with
  | [] => []
  | n :: ns' => (if first then [] else [44%N] ++ (10%N :: 32%N :: spaces (length (ci_name ci)))) ++ fld f ci fs n ++ go false ns'
  end.
Lemma repr_node_eq : forall f c fs co ci, impl_of c = Some ci ->
  repr_value P pr (S f) (VNode c fs co) =
  ci_name ci ++ [40%N] ++ go_fields f ci fs true (nfields ci) ++
  (match nfields ci with [] => [] | _ => 10%N :: 32%N :: spaces (length (ci_name ci)) end) ++ [41%N].
Proof. intros f c fs co ci H. cbn [repr_value]. rewrite H. reflexivity. Qed.

Definition fieldtok (f: nat) (nv: str * value P) : list rtok := TName (fst nv) :: TEq :: toks f (snd nv).

Definition tok_stmt (f: nat) (v: value P) : Prop := Tk (repr_value P pr f v) (toks f v).

Lemma tok_list : forall f l, Forall (tok_stmt f) l ->
  Tk (join_str [44; 10; 32]%N (map (fun e => replace_nl [32%N] (repr_value P pr f e)) l)) (ftoks true (map (toks f) l)).
Proof.
  intros f l H. induction H as [|x l Hx _ IH]; [exact Tk_nil|].
  destruct l as [|y l']; [cbn [map ftoks app]; rewrite app_nil_r; exact (Tk_indent 1 _ _ Hx)|].
  change (Tk (replace_nl [32%N] (repr_value P pr f x) ++ 44%N :: [10; 32]%N ++
              join_str [44; 10; 32]%N (map (fun e => replace_nl [32%N] (repr_value P pr f e)) (y :: l')))
             (toks f x ++ TComma :: ftoks true (map (toks f) (y :: l')))).
  apply Tk_app; [exact (Tk_indent 1 _ _ Hx)| |reflexivity].
  apply Tk_punct; [reflexivity|]. apply Tk_blank; [reflexivity|exact IH].
Qed.

Lemma tok_fields : forall f ci fs, NoDup (ci_slots ci) -> forallb valid_name (ci_slots ci) = true ->
  forall ns pre fpre fss tail2 first,
    ci_slots ci = pre ++ ns ++ tail2 -> fs = fpre ++ fss -> length pre = length fpre -> length ns = length fss ->
    Forall (tok_stmt f) fss ->
    Tk (go_fields f ci fs first ns) (ftoks first (map (fieldtok f) (combine ns fss))).
Proof.
  intros f ci fs Hnd Hval. induction ns as [|n ns' IH]; intros pre fpre fss tail2 first Hs Hf Hl1 Hl2 Hall; [exact Tk_nil|].
  destruct fss as [|v fss']; [discriminate|]. injection Hl2 as Hl2. inversion Hall as [|? ? Hv Hall']; subst.
  assert (Hn: valid_name n = true).
  { rewrite forallb_forall in Hval. apply Hval. rewrite Hs. apply in_or_app. right. left. reflexivity. }
  pose proof (get_field_at ci pre n (ns' ++ tail2) fpre v fss' Hnd Hs Hl1) as Hg.
  change (Tk ((if first then [] else 44%N :: 10%N :: 32%N :: spaces (length (ci_name ci))) ++
              fld f ci (fpre ++ v :: fss') n ++ go_fields f ci (fpre ++ v :: fss') false ns')
             ((if first then [] else [TComma]) ++ (TName n :: TEq :: toks f v) ++ ftoks false (map (fieldtok f) (combine ns' fss')))).
  unfold fld. rewrite Hg, <- !app_assoc.
  assert (Main: Tk (n ++ 61%N :: replace_nl (spaces (2 + (length n + length (ci_name ci)))) (repr_value P pr f v) ++
                    go_fields f ci (fpre ++ v :: fss') false ns')
                   ([TName n] ++ TEq :: toks f v ++ ftoks false (map (fieldtok f) (combine ns' fss')))).
  { apply Tk_app; [exact (Tk_name n Hn)| |reflexivity]. apply Tk_punct; [reflexivity|].
    apply Tk_app; [exact (Tk_indent _ _ _ Hv)| |destruct ns'; [exact I|reflexivity]].
    apply (IH (pre ++ [n]) (fpre ++ [v]) fss' tail2); try assumption; rewrite <- ?app_assoc; [exact Hs|reflexivity|].
    rewrite !app_length. cbn. lia. }
  destruct first; [exact Main|]. apply Tk_punct; [reflexivity|].
  apply (Tk_blank (10%N :: 32%N :: spaces _)); [apply blank_spaces|exact Main].
Qed.

Theorem tok_all : forall f v, wf f v -> tok_stmt f v.
Proof.
  induction f as [|f IH]; intros v Hw; [destruct Hw|].
  assert (IH': forall l, Forall (wf f) l -> Forall (tok_stmt f) l).
  { intros l. apply Forall_impl, IH. }
  destruct v as [|s|l|c fs co]; cbn [wf] in Hw; unfold tok_stmt.
  - exact (Tk_name s_None_tok eq_refl).
  - intros k rest tl _ Hr. cbn [repr_value toks]. rewrite replace_nl_id by apply repr_str_no_newline.
    apply Rtoks_str; assumption.
  - cbn [repr_value toks]. apply Tk_punct; [reflexivity|]. apply Tk_app; [apply tok_list, IH', Hw| |reflexivity].
    apply (Tk_blank [10%N]); [reflexivity|]. apply Tk_punct; [reflexivity|exact Tk_nil].
  - destruct (wf_node f c fs co Hw) as (ci & Hci & F & Hfs & Hlen).
    rewrite (repr_node_eq f c fs co ci Hci). cbn [toks]. rewrite Hci.
    apply (Tk_app _ [TName (ci_name ci)]); [exact (Tk_name _ (cf_vname _ _ F))| |reflexivity].
    apply Tk_punct; [reflexivity|]. apply Tk_app.
    + apply (tok_fields f ci fs (cf_nodup _ _ F) (cf_vslots _ _ F) (nfields ci) [] [] fs (skipn (length (ci_slots ci) - 2) (ci_slots ci)) true);
        [symmetry; apply firstn_skipn|reflexivity|reflexivity|exact Hlen|apply IH', Hfs].
    + destruct (nfields ci); [|apply Tk_blank; [apply blank_spaces|]]; (apply Tk_punct; [reflexivity|exact Tk_nil]).
    + destruct (nfields ci); reflexivity.
Qed.

Definition rest_tok_ok (rest: list rtok) : Prop := match rest with TLP :: _ => False | _ => True end.
Definition head_ok (ts: list rtok) : Prop :=
  match ts with TName _ :: _ => True | TStr _ :: _ => True | TLB :: _ => True | _ => False end.

Lemma toks_head : forall f v, wf f v -> head_ok (toks f v).
Proof.
  intros [|f] v H; [destruct H|]. destruct v as [|s|l|c fs co]; cbn [toks]; try exact I.
  cbn [wf] in H. destruct H as [_ H]. destruct (impl_of c); [exact I|destruct H].
Qed.

Lemma ftoks_head : forall f x l, wf f x -> head_ok (ftoks true (map (toks f) (x :: l))).
Proof.
  intros f x l Hx. cbn [map ftoks app]. apply toks_head in Hx.
  destruct (toks f x) as [|[]]; solve [destruct Hx|exact I].
Qed.
Lemma ftoks_len : forall f l, Forall (wf f) l -> length l <= length (ftoks true (map (toks f) l)).
Proof.
  intros f l H. generalize true. induction H as [|x l Hx Hl IH]; intros b; [cbn; lia|].
  cbn [map ftoks length]. rewrite !app_length. specialize (IH false).
  apply toks_head in Hx. destruct (toks f x); [destruct Hx|]. cbn [length]. lia.
Qed.

Definition pv_stmt (f: nat) (v: value P) : Prop :=
  forall fuel rest, f <= fuel -> rest_tok_ok rest -> pval P fuel (toks f v ++ rest) = Some (strip v, rest).

Lemma pitems_ok : forall pv f x l rest n,
  Forall (fun v => forall rest', rest_tok_ok rest' -> pv (toks f v ++ rest') = Some (strip v, rest')) (x :: l) ->
  length (x :: l) <= n ->
  pitems P pv n (ftoks true (map (toks f) (x :: l)) ++ TRB :: rest) = Some (map strip (x :: l), rest).
Proof.
  intros pv f x l. revert x. induction l as [|y l IH]; intros x rest n Hall Hn.
  - destruct n as [|n]; [cbn in Hn; lia|]. inversion Hall as [|? ? Hx _]; subst.
    cbn [map ftoks app pitems]. rewrite app_nil_r, Hx by exact I. reflexivity.
  - destruct n as [|n]; [cbn in Hn; lia|]. inversion Hall as [|? ? Hx Hall']; subst.
    change (ftoks true (map (toks f) (x :: y :: l))) with (toks f x ++ TComma :: ftoks true (map (toks f) (y :: l))).
    rewrite <- app_assoc. cbn [pitems]. rewrite Hx by exact I. cbn [app].
    rewrite (IH y rest n Hall') by (cbn [length] in *; lia). reflexivity.
Qed.

Lemma pargs_ok : forall pv f ns fss first rest,
  Forall (fun v => forall rest', rest_tok_ok rest' -> pv (toks f v ++ rest') = Some (strip v, rest')) fss ->
  length ns = length fss ->
  pargs P pv ns first (ftoks first (map (fieldtok f) (combine ns fss)) ++ TRP :: rest) = Some (map strip fss, rest).
Proof.
  intros pv f. induction ns as [|n ns IH]; intros fss first rest Hall Hl.
  - destruct fss; [|discriminate]. reflexivity.
  - destruct fss as [|v fss]; [discriminate|]. injection Hl as Hl. inversion Hall as [|? ? Hv Hall']; subst.
    cbn [combine map ftoks]. unfold fieldtok at 1. cbn [fst snd]. rewrite <- !app_assoc.
    assert (Hr: rest_tok_ok (ftoks false (map (fieldtok f) (combine ns fss)) ++ TRP :: rest)).
    { destruct (map (fieldtok f) (combine ns fss)); cbn; exact I. }
    cbn [pargs]. destruct first; cbn [app]; rewrite str_eqb_refl, (Hv _ Hr), (IH fss false rest Hall' Hl); reflexivity.
Qed.

Lemma pval_list : forall fuel ts rest, head_ok ts ->
  pval P (S fuel) (TLB :: ts ++ rest) = wrap_list P (pitems P (pval P fuel) (length (ts ++ rest)) (ts ++ rest)).
Proof. intros fuel [|[]] rest H; solve [destruct H|reflexivity]. Qed.

Theorem pv_all : forall f v, wf f v -> pv_stmt f v.
Proof.
  induction f as [|f IH]; intros v Hw; [destruct Hw|].
  intros fuel rest Hfuel Hrest. destruct fuel as [|fuel]; [lia|]. assert (Hf: f <= fuel) by lia.
  assert (IH': forall l, Forall (wf f) l ->
            Forall (fun v => forall rest', rest_tok_ok rest' -> pval P fuel (toks f v ++ rest') = Some (strip v, rest')) l).
  { intros l. apply Forall_impl. intros a Ha rest'. apply (IH a Ha fuel rest' Hf). }
  destruct v as [|s|l|c fs co]; cbn [wf] in Hw.
  - cbn [toks app strip]. destruct rest as [|[] r]; cbn in Hrest |- *; try reflexivity. destruct Hrest.
  - reflexivity.
  - cbn [toks strip]. destruct l as [|x l']; [reflexivity|].
    cbn [app]. rewrite <- app_assoc. cbn [app].
    rewrite pval_list by (apply ftoks_head; inversion Hw; assumption).
    rewrite pitems_ok; [reflexivity|apply IH', Hw|]. rewrite app_length. pose proof (ftoks_len f _ Hw). lia.
  - destruct (wf_node f c fs co Hw) as (ci & Hci & F & Hfs & Hlen).
    cbn [toks strip]. rewrite Hci. cbn [app]. rewrite <- app_assoc. cbn [app pval].
    rewrite (cf_name _ _ F), cls_of_name_ok. unfold repr_fields. rewrite Hci.
    change (firstn (length (ci_slots ci) - 2) (ci_slots ci)) with (nfields ci).
    pose proof (pargs_ok (pval P fuel) f (nfields ci) fs true rest) as Hp. unfold fieldtok in Hp.
    rewrite Hp; [reflexivity|apply IH', Hfs|exact Hlen].
Qed.

(* eval(repr(t)) == t (with coord None), for every well-formed tree of any depth *)
Theorem eval_repr_tree : forall f v fuel, wf f v -> f <= fuel ->
  pyeval P fuel (repr_value P pr f v) = Some (strip v).
Proof.
  intros f v fuel Hw Hf. unfold pyeval.
  pose proof (tok_all f v Hw 0 [] [] I Rtoks_nil) as [n Hn].
  change (spaces 0) with (@nil N) in Hn. rewrite replace_nl_nil, !app_nil_r in Hn.
  rewrite (rtoks_fuel _ _ _ Hn) by apply Nat.lt_succ_diag_r.
  pose proof (pv_all f v Hw fuel [] Hf I) as Hp. rewrite app_nil_r in Hp. rewrite Hp. reflexivity.
Qed.
End TP.
