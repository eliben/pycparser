(* Meta-theory of the continuation-passing matcher: what a regex denotes, that the matcher is sound for
   it, and derivatives of that denotation. *)
From Coq Require Import List NArith Bool Arith Lia.
Import ListNotations.
From PV Require Import Regex Base.

Lemma str_eqb_iff : forall a b, str_eqb a b = true <-> a = b.
Proof.
  induction a as [|x a IH]; destruct b as [|y b]; cbn; try (split; [discriminate|discriminate]); [tauto|].
  rewrite andb_true_iff, N.eqb_eq, IH. split; [intros [-> ->]; reflexivity|intros [= -> ->]; auto].
Qed.
Lemma str_eqb_refl : forall a, str_eqb a a = true.
Proof. intros a. apply str_eqb_iff. reflexivity. Qed.


(* What a regex denotes. Zero-width assertions denote the empty string: an over-approximation, which is all a
   soundness argument needs. *)
Inductive in_re : re -> str -> Prop :=
| IR_eps : in_re Eps []
| IR_chr : forall cs c, cset_mem c cs = true -> in_re (Chr cs) [c]
| IR_seq : forall a b x y, in_re a x -> in_re b y -> in_re (Seq a b) (x ++ y)
| IR_altl : forall a b x, in_re a x -> in_re (Alt a b) x
| IR_altr : forall a b x, in_re b x -> in_re (Alt a b) x
| IR_star0 : forall a, in_re (Star a) []
| IR_star1 : forall a x y, in_re a x -> in_re (Star a) y -> in_re (Star a) (x ++ y)
| IR_notahead : forall a, in_re (NotAhead a) []
| IR_atend : in_re AtEnd [].

Lemma in_re_nil_nullable : forall r w, in_re r w -> w = [] -> nullable r = true.
Proof.
  intros r w H. induction H; intros E; cbn [nullable]; try reflexivity.
  - discriminate.
  - apply app_eq_nil in E. destruct E as [-> ->]. rewrite IHin_re1, IHin_re2; reflexivity.
  - rewrite IHin_re; [reflexivity|exact E].
  - rewrite IHin_re; [apply orb_true_r|exact E].
Qed.

Lemma cset_mem_ranges : forall c rs, cset_mem c (CSet false rs) = true ->
  exists ab, In ab rs /\ (fst ab <= c <= snd ab)%N.
Proof.
  intros c rs H. cbn [cset_mem] in H. destruct (in_ranges c rs) eqn:E; [clear H|discriminate].
  apply existsb_exists in E. destruct E as (ab & Hin & H).
  apply andb_true_iff in H. destruct H as [H1 H2]. apply N.leb_le in H1, H2. eauto.
Qed.

Lemma m_sound_lang : forall r A n0 i s k x, m A n0 r i s k = Some x ->
  exists p s', s = p ++ s' /\ in_re r p /\ k (i + length p) s' = Some x.
Proof.
  assert (Hnil: forall r A (k: nat -> str -> option A) i s x, in_re r [] -> k i s = Some x ->
            exists p s', s = p ++ s' /\ in_re r p /\ k (i + length p) s' = Some x).
  { intros r A k i s x Hr Hk. exists [], s. rewrite Nat.add_0_r. auto. }
  induction r as [|cs|a IHa b IHb|a IHa b IHb|a IHa|a IHa|]; intros A n0 i s k x H; cbn [m] in H.
  - apply Hnil; [constructor|exact H].
  - destruct s as [|c s']; [discriminate|]. destruct (cset_mem c cs) eqn:E; [|discriminate].
    exists [c], s'. cbn [length]. rewrite Nat.add_1_r. repeat split; auto. constructor. exact E.
  - apply IHa in H. destruct H as (p1 & s1 & -> & H1 & Hk).
    apply IHb in Hk. destruct Hk as (p2 & s2 & -> & H2 & Hk2).
    exists (p1 ++ p2), s2. rewrite app_assoc, app_length, Nat.add_assoc. repeat split; [constructor; assumption|exact Hk2].
  - destruct (m A n0 a i s k) as [y|] eqn:Ha.
    + injection H as ->. apply IHa in Ha. destruct Ha as (p & s1 & ? & ? & ?). exists p, s1. repeat split; auto. apply IR_altl. assumption.
    + apply IHb in H. destruct H as (p & s1 & ? & ? & ?). exists p, s1. repeat split; auto. apply IR_altr. assumption.
  - (* induction on the loop's counter, not on the fuel handed down to [m] *)
    revert i s x H. generalize n0 at 2. intros n. induction n as [|n IHn]; intros i s x H.
    + apply Hnil; [constructor|exact H].
    + destruct (m A n0 a i s _) as [y|] eqn:Hm.
      * injection H as ->. apply IHa in Hm. destruct Hm as (p1 & s1 & -> & H1 & Hk1).
        apply IHn in Hk1. destruct Hk1 as (p2 & s2 & -> & H2 & Hk2).
        exists (p1 ++ p2), s2. rewrite app_assoc, app_length, Nat.add_assoc. repeat split; [apply IR_star1; assumption|exact Hk2].
      * apply Hnil; [constructor|exact H].
  - destruct (m unit n0 a i s (fun _ _ => Some tt)); [discriminate|]. apply Hnil; [constructor|exact H].
  - destruct (at_end s); [|discriminate]. apply Hnil; [constructor|exact H].
Qed.

Lemma m_sound : forall r A n0 i s k x, m A n0 r i s k = Some x ->
  exists p s', s = p ++ s' /\ k (i + length p) s' = Some x /\ (nullable r = false -> p <> []).
Proof.
  intros r A n0 i s k x H. apply m_sound_lang in H. destruct H as (p & s' & -> & Hin & Hk).
  exists p, s'. repeat split; [exact Hk|]. intros Hn ->. rewrite (in_re_nil_nullable _ _ Hin eq_refl) in Hn. discriminate.
Qed.

Lemma match_re_lang : forall n0 r s len s', match_re n0 r s = Some (len, s') ->
  exists p, s = p ++ s' /\ len = length p /\ in_re r p.
Proof.
  unfold match_re. intros n0 r s len s' H. apply m_sound_lang in H.
  destruct H as (p & s1 & -> & Hin & Hk). injection Hk as <- <-. eauto.
Qed.

Lemma match_re_firstn : forall n0 r s len s', match_re n0 r s = Some (len, s') ->
  firstn len s = firstn len s /\ skipn len s = s' /\ len <= length s.
Proof.
  intros n0 r s len s' H. apply match_re_lang in H. destruct H as (p & -> & -> & _).
  split; [reflexivity|]. split.
  - rewrite skipn_app, skipn_all, Nat.sub_diag. reflexivity.
  - rewrite app_length. lia.
Qed.

(* Brzozowski derivative for [in_re]; [dseq] and [dalt] keep dead branches from piling up. *)
Definition Void : re := Chr (CSet false []).
Definition is_void (r: re) : bool := match r with Chr (CSet false []) => true | _ => false end.
Definition dseq (a b: re) : re := if is_void a then Void else Seq a b.
Definition dalt (a b: re) : re := if is_void a then b else if is_void b then a else Alt a b.

Fixpoint der (c: N) (r: re) : re :=
  match r with
  | Eps | NotAhead _ | AtEnd => Void
  | Chr cs => if cset_mem c cs then Eps else Void
  | Seq a b => dalt (dseq (der c a) b) (if nullable a then der c b else Void)
  | Alt a b => dalt (der c a) (der c b)
  | Star a => dseq (der c a) (Star a)
  end.

Lemma is_void_sound : forall r w, is_void r = true -> ~ in_re r w.
Proof.
  intros [|[[|] [|]]| | | | |] w E H; try discriminate. inversion H; discriminate.
Qed.

Lemma in_dseq : forall a b x y, in_re a x -> in_re b y -> in_re (dseq a b) (x ++ y).
Proof.
  intros a b x y Ha Hb. unfold dseq. destruct (is_void a) eqn:E; [destruct (is_void_sound _ _ E Ha)|constructor; assumption].
Qed.

Lemma in_dalt : forall a b x, in_re a x \/ in_re b x -> in_re (dalt a b) x.
Proof.
  intros a b x H. unfold dalt. destruct (is_void a) eqn:Ea; [|destruct (is_void b) eqn:Eb].
  - destruct H as [H|H]; [destruct (is_void_sound _ _ Ea H)|exact H].
  - destruct H as [H|H]; [exact H|destruct (is_void_sound _ _ Eb H)].
  - destruct H as [H|H]; [apply IR_altl|apply IR_altr]; exact H.
Qed.

Lemma der_sound : forall r c w, in_re r (c :: w) -> in_re (der c r) w.
Proof.
  intros r c w H. remember (c :: w) as s eqn:E. revert w E.
  induction H as [|cs c0 Hc|a b x y Ha IHa Hb IHb|a b x Ha IHa|a b x Hb IHb| |a x y Ha IHa Hs IHs| |]; intros w E; try discriminate; cbn [der].
  - injection E as -> <-. rewrite Hc. constructor.
  - apply in_dalt. destruct x as [|c1 x]; cbn [app] in E.
    + right. rewrite (in_re_nil_nullable _ _ Ha eq_refl). apply IHb, E.
    + left. injection E as -> <-. apply in_dseq; [apply IHa; reflexivity|exact Hb].
  - apply in_dalt. left. apply IHa, E.
  - apply in_dalt. right. apply IHb, E.
  - destruct x as [|c1 x]; cbn [app] in E.
    + apply IHs, E.
    + injection E as -> <-. apply in_dseq; [apply IHa; reflexivity|exact Hs].
Qed.
