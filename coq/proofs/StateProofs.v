(* C12 / C13: the static state inventory (gen/StateFacts.v, a static read of pycparser/*.py) and the generic isolation argument. *)
From Coq Require Import List NArith Bool Arith Lia.
Import ListNotations.
From PV Require Import Regex Base StateFacts.

Definition subset (a b: list str) : bool := forallb (fun x => mem_str x b) a.

(* every CParser attribute that any method writes after construction is re-assigned at the top of parse();
   the lexer is re-initialised there through clex.input() *)
Theorem parser_state_reset_by_parse :
  subset parser_attrs_after_init parse_resets_attrs = true
  /\ mem_str (s2l "self.clex.input") parse_resets_calls = true
  /\ subset parser_attrs (s2l "clex" :: parse_resets_attrs) = true.
Proof. repeat split; vm_compute; reflexivity. Qed.

(* CLexer.input() starts with _init_state(), which re-assigns every attribute the lexer ever mutates *)
Theorem lexer_state_reset_by_input :
  mem_str (s2l "self._init_state") lexer_input_calls = true
  /\ subset lexer_attrs_after_init lexer_init_state_attrs = true.
Proof. split; vm_compute; reflexivity. Qed.

(* the constructor of the token stream assigns all its attributes (and parse() re-assigns _tokens, above) *)
Theorem tokenstream_fresh : subset tokenstream_attrs tokenstream_init_attrs = true.
Proof. vm_compute. reflexivity. Qed.

(* the generator mutates nothing but indent_level *)
Theorem generator_only_indent : subset generator_attrs_after_init [s2l "indent_level"] = true.
Proof. vm_compute. reflexivity. Qed.

(* no function or method writes to a module-level object, a class attribute or a default-argument object,
   and no class keeps a mutable object at class level *)
Theorem no_shared_mutable : global_writes = [] /\ class_level_mutable_objects = [].
Proof. split; vm_compute; reflexivity. Qed.

(* history independence of a call that starts by resetting all its state *)
Section Reset.
Variables (St In Out : Type).
Variable fresh : In -> St.            (* what the resets at the top of the call compute from the arguments *)
Variable body : St -> Out * St.       (* the rest of the call, reading and writing only the reset state *)
Definition call (st: St) (x: In) : Out * St := body (fresh x).

Theorem call_history_independent : forall st st' x, fst (call st x) = fst (call st' x).
Proof. reflexivity. Qed.

Fixpoint run_calls (st: St) (xs: list In) : list Out :=
  match xs with [] => [] | x :: r => let (o, st') := call st x in o :: run_calls st' r end.

(* the n-th call on a reused instance gives what a brand-new instance gives *)
Theorem reused_equals_fresh : forall xs st st0, run_calls st xs = map (fun x => fst (call st0 x)) xs.
Proof.
  induction xs as [|x r IH]; intros st st0; cbn; [reflexivity|].
  unfold call at 1. destruct (body (fresh x)) as [o st'] eqn:E. cbn. f_equal.
  - unfold call. rewrite E. reflexivity.
  - apply IH.
Qed.
End Reset.

(* isolation of instances with disjoint state (token-granularity interleavings) *)
Section Isolation.
Variables (S1 S2 : Type).
Variable step1 : S1 -> S1.
Variable step2 : S2 -> S2.

(* a schedule says which instance takes the next step *)
Fixpoint run_sched (sched: list bool) (s: S1 * S2) : S1 * S2 :=
  match sched with
  | [] => s
  | true :: r => run_sched r (step1 (fst s), snd s)
  | false :: r => run_sched r (fst s, step2 (snd s))
  end.

Fixpoint iter {A} (f: A -> A) (n: nat) (a: A) : A := match n with O => a | S k => iter f k (f a) end.

Theorem interleaving_equals_solo : forall sched s,
  run_sched sched s = (iter step1 (length (filter (fun b => b) sched)) (fst s),
                       iter step2 (length (filter negb sched)) (snd s)).
Proof.
  induction sched as [|b r IH]; intros [a c]; cbn; [reflexivity|].
  destruct b; cbn; rewrite IH; reflexivity.
Qed.
End Isolation.
