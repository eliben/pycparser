(* C10, bounded but exhaustive and kernel-checked: for EVERY string of length <= 4 over the 24-character
   literal alphabet, the lexer model returns it as one literal token of class K exactly when the
   independent literal grammar (gen/LitSpec.v, translated from the harness's C99 6.4.4/6.4.5 grammar)
   accepts the whole string as a literal of class K.  The bound is part of the statement. *)
From Coq Require Import List NArith Bool Arith Lia.
Import ListNotations.
From PV Require Import Regex Base UnicodeTables LexTables PyRepr Lexer LitSpec RegexLemmas LexerProofs TableProofs.
Open Scope N_scope.

Definition fullmatch (r: re) (s: str) : bool :=
  match m unit (length s) r 0 s (fun _ s' => match s' with [] => Some tt | _ => None end) with Some _ => true | None => false end.

Definition spec_class (s: str) : option kind :=
  option_map fst (find (fun p => fullmatch (snd p) s) lit_spec).

Definition is_literal_kind (k: kind) : bool := existsb (fun p => kind_eqb k (fst p)) lit_spec.

Definition model_class (s: str) : option kind :=
  match raw_lex (S (length s)) (init_lexst []) s with
  | ([RTok k v _ _ _], _, _) => if str_eqb v s && is_literal_kind k then Some k else None
  | _ => None
  end.

Definition okind_eqb (a b: option kind) : bool :=
  match a, b with Some x, Some y => kind_eqb x y | None, None => true | _, _ => false end.

Definition agree (s: str) : bool := okind_eqb (spec_class s) (model_class s).

(* a literal, on either side, is a word of one of these regexes *)
Definition lit_rule (r: rule) : bool := match ract r with A_TOKEN k => is_literal_kind k | _ => false end.
Definition lits : list re := map snd lit_spec ++ map rre (filter lit_rule regex_rules).

Lemma fullmatch_lang : forall r s, fullmatch r s = true -> in_re r s.
Proof.
  intros r s H. unfold fullmatch in H. destruct (m _ _ _ _ _ _) eqn:E; [|discriminate].
  apply m_sound_lang in E. destruct E as (p & [|] & -> & Hin & Hk); [|discriminate]. rewrite app_nil_r. exact Hin.
Qed.

Lemma spec_class_lang : forall s k, spec_class s = Some k -> exists r, In r lits /\ in_re r s.
Proof.
  intros s k H. unfold spec_class in H. destruct (find _ lit_spec) as [[k' r]|] eqn:E; [|discriminate].
  apply find_some in E. destruct E as [Hin Hm]. exists r. split; [|apply fullmatch_lang, Hm].
  apply in_or_app. left. apply (in_map snd _ _ Hin).
Qed.

Lemma literals_regex_only : regex_only is_literal_kind = true.
Proof. vm_compute. reflexivity. Qed.

Lemma model_class_lang : forall s k, model_class s = Some k -> exists r, In r lits /\ in_re r s.
Proof.
  intros s k H. unfold model_class in H.
  pose proof (raw_lex_regex_tok _ literals_regex_only (S (length s)) (init_lexst []) s) as T.
  destruct (raw_lex _ _ s) as [[[|[k0 v l c0 f| |] [|]] stf] b]; try discriminate.
  destruct (str_eqb v s) eqn:Ev; [|discriminate]. apply str_eqb_iff in Ev. subst v.
  destruct (is_literal_kind k0) eqn:Ek; [|discriminate]. clear H.
  apply Forall_inv in T. destruct (T Ek) as (r & Hr & Ha & Hin).
  exists (rre r). split; [|exact Hin]. apply in_or_app. right. apply in_map, filter_In. split; [exact Hr|].
  unfold lit_rule. rewrite Ha. exact Ek.
Qed.

Lemma not_literal_agree : forall s, (forall r, In r lits -> ~ in_re r s) -> agree s = true.
Proof.
  intros s Hno.
  assert (H: forall k, spec_class s = Some k \/ model_class s = Some k -> False).
  { intros k Hk. assert (Hr: exists r, In r lits /\ in_re r s).
    { destruct Hk as [Hk|Hk]; [eapply spec_class_lang; eauto|eapply model_class_lang; eauto]. }
    destruct Hr as (r & Hr & Hin). exact (Hno r Hr Hin). }
  unfold agree. destruct (spec_class s) as [a|]; [destruct (H a); auto|].
  destruct (model_class s) as [a|]; [destruct (H a); auto|reflexivity].
Qed.

Definition covers (p: str) (rs: list re) : Prop :=
  forall r w, In r lits -> in_re r (p ++ w) -> exists r', In r' rs /\ in_re r' w.

Definition step (c: N) (rs: list re) : list re := filter (fun r => negb (is_void r)) (map (der c) rs).

Lemma covers_snoc : forall p rs c, covers p rs -> covers (p ++ [c]) (step c rs).
Proof.
  intros p rs c Hcov r w Hr Hin. rewrite <- app_assoc in Hin. destruct (Hcov _ _ Hr Hin) as (r' & Hr' & Hin').
  apply der_sound in Hin'. exists (der c r'). split; [|exact Hin']. apply filter_In. split; [apply in_map, Hr'|].
  destruct (is_void (der c r')) eqn:E; [destruct (is_void_sound _ _ E Hin')|reflexivity].
Qed.

Lemma node_agree : forall p rs, covers p rs -> (if existsb nullable rs then agree p else true) = true -> agree p = true.
Proof.
  intros p rs Hcov H. destruct (existsb nullable rs) eqn:En; [exact H|]. apply not_literal_agree.
  intros r Hr Hin. rewrite <- (app_nil_r p) in Hin. destruct (Hcov _ _ Hr Hin) as (r' & Hr' & Hin').
  apply in_re_nil_nullable in Hin'; [|reflexivity]. rewrite (proj2 (existsb_exists _ _)) in En; [discriminate|eauto].
Qed.

(* [rs]: what is left of [lits] after deriving along [p].  If none is nullable, p is a literal on neither side;
   if none is left, neither is any word that starts with p, and the subtree is not visited. *)
Fixpoint walk (n: nat) (p: str) (rs: list re) : bool :=
  match rs with
  | [] => true
  | _ => (if existsb nullable rs then agree p else true)
         && match n with
            | O => true
            | S n' => forallb (fun c => walk n' (p ++ [c]) (step c rs)) lit_alphabet
            end
  end.

Lemma walk_sound : forall n p rs, covers p rs -> walk n p rs = true ->
  forall t, (length t <= n)%nat -> Forall (fun c => In c lit_alphabet) t -> agree (p ++ t) = true.
Proof.
  assert (Hdead: forall p t, covers p [] -> agree (p ++ t) = true).
  { intros p t Hcov. apply not_literal_agree. intros r Hr Hin. destruct (Hcov _ _ Hr Hin) as (_ & [] & _). }
  induction n as [|n IH]; intros p rs Hcov H t Hl Ht; (destruct rs as [|r0 rs0]; [apply Hdead; assumption|]);
    cbn [walk] in H; apply andb_true_iff in H; destruct H as [H0 H1];
    (destruct t as [|c t]; [rewrite app_nil_r; eapply node_agree; eauto|]).
  - cbn in Hl. lia.
  - rewrite forallb_forall in H1. change (c :: t) with ([c] ++ t). rewrite app_assoc.
    apply (IH _ _ (covers_snoc _ _ c Hcov)); [apply H1; exact (Forall_inv Ht)|cbn in Hl; lia|exact (Forall_inv_tail Ht)].
Qed.

Lemma bounded_check : walk 4 [] lits = true.
Proof. vm_compute. reflexivity. Qed.

Theorem literal_iff_wellformed_bounded : forall s,
  (length s <= 4)%nat -> Forall (fun c => In c lit_alphabet) s -> spec_class s = model_class s.
Proof.
  intros s Hl Hs.
  pose proof (walk_sound 4 [] lits (fun r w Hr Hin => ex_intro _ r (conj Hr Hin)) bounded_check s Hl Hs) as H.
  cbn [app] in H. unfold agree, okind_eqb in H.
  destruct (spec_class s) as [a|]; destruct (model_class s) as [b|]; try discriminate; [|reflexivity].
  f_equal. apply kind_eqb_eq, H.
Qed.
