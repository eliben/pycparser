(* C02 on the whole-parser model: prefix operators, casts and sizeof bind tighter than any binary operator,
   postfix operators tighter still, and postfix operators apply left to right.
   - the operand of & * + - ~ ! is a cast-expression, the operand of ++ / -- / sizeof a unary-expression,
     the operand of a cast a cast-expression (binary operators can only enter through parentheses);
   - the postfix suffixes [..] (..) .m ->m ++ -- are folded over the primary expression left to right,
     each new node taking the coordinate of the node it wraps. *)
From Coq Require Import List NArith Bool Arith Lia.
Import ListNotations.
From PV Require Import Regex Base LexTables ParserTables AstDefs AstSpec AstImpl PyRepr NodeModel ParserBase ParserDecl ParserMain PostLib.
Open Scope nat_scope.

Section US.
Variable P : Type.
Notation node := (node P).

Definition cast_here (f: nat) (e: node) : Prop := came_from P (p_cast_expression P f) e.
Definition unary_here (f: nat) (e: node) : Prop := came_from P (p_unary_expression P f) e.

Lemma cast_eq : forall f,
  p_cast_expression P (S f) =
  bind P (try_paren_type_name P f) (fun r =>
  match r with
  | Some (typ, mk, lpt) =>
    bind P (peek_kind P) (fun k =>
    if okind_is k K_LBRACE then bind P (reset P mk) (fun _ => p_unary_expression P f)
    else bind P (p_cast_expression P f) (fun e => bind P (tcoord P lpt) (fun c => ret P (mkN P C_Cast [typ; e] c))))
  | None => p_unary_expression P f
  end).
Proof. reflexivity. Qed.

Lemma unary_eq : forall f,
  p_unary_expression P (S f) =
  bind P (peek_kind P) (fun k =>
    if okind_is k K_PLUSPLUS || okind_is k K_MINUSMINUS then
      bind P (advance P) (fun t => bind P (p_unary_expression P f) (fun e => bind P (coordA P e) (fun ec =>
      ret P (mkN P C_UnaryOp [VStr (tv t); e] ec))))
    else if okind_in k [K_AND; K_TIMES; K_PLUS; K_MINUS; K_NOT; K_LNOT] then
      bind P (advance P) (fun t => bind P (p_cast_expression P f) (fun e => bind P (coordA P e) (fun ec =>
      ret P (mkN P C_UnaryOp [VStr (tv t); e] ec))))
    else if okind_is k K_SIZEOF then
      bind P (advance P) (fun t =>
      bind P (try_paren_type_name P f) (fun r =>
      match r with
      | Some (typ, _, _) => bind P (tcoord P t) (fun c => ret P (mkN P C_UnaryOp [VStr (tv t); typ] c))
      | None => bind P (p_unary_expression P f) (fun e => bind P (tcoord P t) (fun c => ret P (mkN P C_UnaryOp [VStr (tv t); e] c)))
      end))
    else if okind_is k K_uALIGNOF then
      bind P (advance P) (fun t => bind P (expect P K_LPAREN) (fun _ => bind P (p_type_name P f) (fun typ =>
      bind P (expect P K_RPAREN) (fun _ => bind P (tcoord P t) (fun c => ret P (mkN P C_UnaryOp [VStr (tv t); typ] c))))))
    else p_postfix_expression P f).
Proof. reflexivity. Qed.

Theorem unary_operand : forall f,
  post P (fun r =>
      (exists op e ec, (cast_here f e \/ unary_here f e) /\ r = mkN P C_UnaryOp [VStr op; e] ec)   (* prefix operator / sizeof expr *)
   \/ (exists op typ c, came_from P (p_type_name P f) typ /\ r = mkN P C_UnaryOp [VStr op; typ] c)     (* _Alignof ( type-name ) *)
   \/ (exists op typ c, r = mkN P C_UnaryOp [VStr op; typ] c /\ exists x, came_from P (try_paren_type_name P f) (Some x) /\ fst (fst x) = typ)   (* sizeof ( type-name ) *)
   \/ came_from P (p_postfix_expression P f) r)
  (p_unary_expression P (S f)).
Proof.
  intros f. rewrite unary_eq. apply (post_bind_from P). intros k _.
  destruct (okind_is k K_PLUSPLUS || okind_is k K_MINUSMINUS);
    [|destruct (okind_in k [K_AND; K_TIMES; K_PLUS; K_MINUS; K_NOT; K_LNOT]); [|destruct (okind_is k K_SIZEOF); [|destruct (okind_is k K_uALIGNOF)]]].
  - post_tac P. apply (post_ret P). left. eexists _, _, _. split; [right; eassumption|reflexivity].
  - post_tac P. apply (post_ret P). left. eexists _, _, _. split; [left; eassumption|reflexivity].
  - post_tac P; apply (post_ret P).
    + do 2 right. left. eexists _, _, _. split; [reflexivity|]. eexists. split; [eassumption|reflexivity].
    + left. eexists _, _, _. split; [right; eassumption|reflexivity].
  - post_tac P. apply (post_ret P). right. left. eexists _, _, _. split; [eassumption|reflexivity].
  - apply (post_came P). intros r Hr. do 3 right. exact Hr.
Qed.

(* cast-expression: ( type-name ) cast-expression, or a unary-expression *)
Theorem cast_operand : forall f,
  post P (fun r => (exists typ e c, cast_here f e /\ r = mkN P C_Cast [typ; e] c) \/ unary_here f r)
       (p_cast_expression P (S f)).
Proof.
  intros f. rewrite cast_eq. apply (post_bind_from P). intros r Hr. destruct r as [[[typ mk] lpt]|].
  - apply (post_bind_from P). intros k Hk. destruct (okind_is k K_LBRACE).
    + apply (post_bind_from P). intros u Hu. apply (post_came P). intros a Ha. right. exact Ha.
    + post_tac P. apply (post_ret P). left. eexists _, _, _. split; [eassumption|reflexivity].
  - apply (post_came P). intros a Ha. right. exact Ha.
Qed.

Inductive sfx :=
| SIndex (sub: node) | SCall (args: node) | SMember (op name: str) (nc: coord P) | SPost (op: str).

Definition app_sfx (e: node) (x: sfx) : node :=
  match get_coord P e with
  | None => VNone
  | Some ec =>
    match x with
    | SIndex sub => mkN P C_ArrayRef [e; sub] ec
    | SCall args => mkN P C_FuncCall [e; args] ec
    | SMember op name nc => mkN P C_StructRef [e; VStr op; mkN P C_ID [VStr name] (Some nc)] ec
    | SPost op => mkN P C_UnaryOp [VStr (112%N :: op); e] ec
    end
  end.

Lemma suffix_eq : forall f e,
  p_postfix_suffixes P (S f) e =
  bind P (accept P K_LBRACKET) (fun lb =>
  match lb with
  | Some _ =>
    bind P (p_expression P f) (fun sub => bind P (expect P K_RBRACKET) (fun _ => bind P (coordA P e) (fun ec =>
    p_postfix_suffixes P f (mkN P C_ArrayRef [e; sub] ec))))
  | None =>
    bind P (accept P K_LPAREN) (fun lp =>
    match lp with
    | Some _ =>
      bind P (peek_kind P) (fun k =>
      bind P (if okind_is k K_RPAREN then bind P (advance P) (fun _ => ret P VNone)
              else bind P (p_argument_expression_list P f) (fun a => bind P (expect P K_RPAREN) (fun _ => ret P a))) (fun args =>
      bind P (coordA P e) (fun ec =>
      p_postfix_suffixes P f (mkN P C_FuncCall [e; args] ec))))
    | None =>
      bind P (peek_kind P) (fun k =>
      if okind_is k K_PERIOD || okind_is k K_ARROW then
        bind P (advance P) (fun op => bind P (advance P) (fun nt => bind P (tok_coord P nt) (fun nc =>
        if negb (kind_eqb (tk nt) K_ID || kind_eqb (tk nt) K_TYPEID) then fail P (L_coord P nc) (s2l "Invalid struct reference")
        else bind P (coordA P e) (fun ec =>
             p_postfix_suffixes P f (mkN P C_StructRef [e; VStr (tv op); mkN P C_ID [VStr (tv nt)] (Some nc)] ec)))))
      else if okind_is k K_PLUSPLUS || okind_is k K_MINUSMINUS then
        bind P (advance P) (fun t => bind P (coordA P e) (fun ec =>
        p_postfix_suffixes P f (mkN P C_UnaryOp [VStr (112%N :: tv t); e] ec)))
      else ret P e)
    end)
  end).
Proof. reflexivity. Qed.

Theorem postfix_left_to_right : forall f e,
  post P (fun r => exists sufs, r = fold_left app_sfx sufs e) (p_postfix_suffixes P f e).
Proof.
  induction f as [|f IH]; intros e; [apply (post_oof P)|]. rewrite suffix_eq.
  assert (Step: forall x n, n = app_sfx e x -> post P (fun r => exists sufs, r = fold_left app_sfx sufs e) (p_postfix_suffixes P f n)).
  { intros x n -> s a s' E. destruct (IH _ _ _ _ E) as [sufs ->]. exists (x :: sufs). reflexivity. }
  post_tac P;
    [eapply (Step (SIndex _))|eapply (Step (SCall _))|eapply (Step (SMember _ _ _))|eapply (Step (SPost _))|apply (post_ret P); exists []; reflexivity];
    unfold app_sfx; erewrite came_coordA by eassumption; reflexivity.
Qed.
End US.
