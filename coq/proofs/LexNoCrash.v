(* C06, lexing half: CLexer never trips its own `assert msg is not None` - for every text, the item
   stream of the lexer model contains no crash item. *)
From Coq Require Import List NArith Bool Arith Lia.
Import ListNotations.
From PV Require Import Regex Base UnicodeTables LexTables PyRepr Lexer LexerProofs LiteralProofs.
Open Scope nat_scope.

Lemma no_crash_Forall : forall items, Forall (fun i => i <> RCrash) items -> has_crash items = false.
Proof. induction 1 as [|[] l Hi _ IH]; [reflexivity|exact IH..|congruence]. Qed.

(* the crash case of _match_token needs an error rule without a message that is not BAD_CHAR_CONST: the table has none *)
Lemma match_token_no_crash : forall n0 st rest, Forall (fun i => i <> RCrash) (fst (fst (match_token n0 st rest))).
Proof.
  intros n0 st rest. destruct (match_token_cases n0 st rest) as [| | | |r Hr Ha Hn|]; cbn [fst]; try (repeat constructor; discriminate).
  destruct (no_crash_rule r Hr Ha Hn).
Qed.

Theorem lex_no_crash : forall fuel st rest, has_crash (fst (fst (raw_lex fuel st rest))) = false.
Proof.
  intros fuel st rest. apply no_crash_Forall, raw_lex_Forall; [|apply match_token_no_crash].
  intros [] Hd; [discriminate..|destruct Hd].
Qed.
