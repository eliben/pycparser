(* C14: NodeVisitor.  The per-instance method cache is transparent - for every AST, every visitor
   (set of visit_X methods) and every consistent starting cache, visit() produces exactly the events
   of the cache-free traversal [spec_visit]; in that traversal a visit_X method intercepts exactly the
   nodes of class X, and as long as no visit_X method omits generic_visit it reaches every reachable
   node once, in pre-order ([preorder]). *)
From Coq Require Import List NArith Bool Arith Lia.
Import ListNotations.
From PV Require Import Regex Base AstDefs AstSpec AstImpl PyRepr NodeModel NodeProofs.
Open Scope nat_scope.

Definition cat_opt {A B C: Type} (F: B -> C -> option (list A)) : list (B * C) -> option (list A) :=
  fix go l := match l with
              | [] => Some []
              | (b, c) :: l' => match F b c, go l' with Some x, Some y => Some (x ++ y) | _, _ => None end
              end.

Lemma cat_opt_Forall : forall A B C (F: B -> C -> option (list A)) (Q: A -> Prop),
  (forall b c a, F b c = Some a -> Forall Q a) -> forall l r, cat_opt F l = Some r -> Forall Q r.
Proof.
  intros A B C F Q HF. induction l as [|[b c] l IH]; intros r H; cbn [cat_opt] in H.
  - injection H as <-. constructor.
  - destruct (F b c) as [x|] eqn:E; [|discriminate]. destruct (cat_opt F l) as [y|]; [|discriminate].
    injection H as <-. apply Forall_app. split; [apply (HF _ _ _ E)|apply IH; reflexivity].
Qed.

Lemma cat_opt_map : forall A A' B C (F: B -> C -> option (list A')) (G: B -> C -> option (list A)) (h: A -> A'),
  (forall b c, F b c = option_map (map h) (G b c)) -> forall l, cat_opt F l = option_map (map h) (cat_opt G l).
Proof.
  intros A A' B C F G h HF. induction l as [|[b c] l IH]; [reflexivity|]. cbn [cat_opt]. rewrite HF, IH.
  destruct (G b c); [|reflexivity]. destruct (cat_opt G l); [|reflexivity]. cbn [option_map]. rewrite map_app. reflexivity.
Qed.

Section VP.
Variable P : Type.
Variable handler_of : cls -> handler.
Notation value := (value P).

Fixpoint spec_visit (fuel: nat) (v: value) : option (list (cls * bool)) :=
  match fuel with
  | O => None
  | S f =>
    match v with
    | VNode c fs co =>
      let gen : option (list (cls * bool)) :=
        match children P v with
        | None => None
        | Some ch =>
          (fix go (l: list (str * value)) : option (list (cls * bool)) :=
             match l with
             | [] => Some []
             | (_, cv) :: l' =>
               match spec_visit f cv, go l' with
               | Some e1, Some e2 => Some (e1 ++ e2)
               | _, _ => None
               end
             end) ch
        end in
      match handler_of c with
      | H_generic => option_map (fun ev => (c, false) :: ev) gen
      | H_stop => Some [(c, true)]
      | H_recurse => option_map (fun ev => (c, true) :: ev) gen
      end
    | _ => None
    end
  end.

Definition cache_ok (m: cache) : Prop := forall c h, cache_get c m = Some h -> h = handler_of c.

Lemma spec_visit_S : forall f c fs co, spec_visit (S f) (VNode c fs co) =
  let gen := match children P (VNode c fs co) with None => None | Some ch => cat_opt (fun _ cv => spec_visit f cv) ch end in
  match handler_of c with
  | H_generic => option_map (fun ev => (c, false) :: ev) gen
  | H_stop => Some [(c, true)]
  | H_recurse => option_map (fun ev => (c, true) :: ev) gen
  end.
Proof. reflexivity. Qed.

Lemma resolve_ok : forall c m, cache_ok m -> fst (resolve handler_of c m) = handler_of c /\ cache_ok (snd (resolve handler_of c m)).
Proof.
  intros c m Hm. unfold resolve. destruct (cache_get c m) as [h|] eqn:E.
  - cbn. split; [apply Hm; exact E|exact Hm].
  - cbn. split; [reflexivity|]. intros c' h' H. cbn [cache_get] in H. destruct (cls_eqb c' c) eqn:Ec.
    + injection H as <-. apply cls_eqb_eq in Ec. subst. reflexivity.
    + apply Hm. exact H.
Qed.

Theorem visit_cache_transparent : forall f m v ev m', cache_ok m ->
  visit P handler_of f m v = Some (ev, m') -> spec_visit f v = Some ev /\ cache_ok m'.
Proof.
  induction f as [|f IH]; intros m v ev m' Hm H; [discriminate|].
  destruct v as [| |l|c fs co]; try discriminate. rewrite spec_visit_S. cbn [visit] in H. cbv zeta.
  pose proof (resolve_ok c m Hm) as [Hh Hm1]. destruct (resolve handler_of c m) as [h m1]. cbn [fst snd] in *. subst h.
  assert (Gen: forall ch m0 ev0 m2, cache_ok m0 ->
     (fix go (l: list (str * value)) (m2: cache) : option (list (cls * bool) * cache) :=
        match l with
        | [] => Some ([], m2)
        | (_, cv) :: l' =>
          match visit P handler_of f m2 cv with
          | None => None
          | Some (ev1, m3) => match go l' m3 with None => None | Some (ev2, m4) => Some (ev1 ++ ev2, m4) end
          end
        end) ch m0 = Some (ev0, m2) ->
     cat_opt (fun _ cv => spec_visit f cv) ch = Some ev0 /\ cache_ok m2).
  { induction ch as [|[nm cv] ch IHch]; intros m0 ev0 m2 H0 Hg.
    - injection Hg as <- <-. split; [reflexivity|exact H0].
    - destruct (visit P handler_of f m0 cv) as [[ev1 m3]|] eqn:Ev; [|discriminate].
      destruct (IH _ _ _ _ H0 Ev) as [Hs1 Hm3].
      match type of Hg with match ?G with _ => _ end = _ => destruct G as [[ev2 m4]|] eqn:Eg; [|discriminate] end.
      injection Hg as <- <-. destruct (IHch _ _ _ Hm3 Eg) as [Hs2 Hm4].
      cbn [cat_opt]. rewrite Hs1, Hs2. split; [reflexivity|exact Hm4]. }
  destruct (handler_of c); [|injection H as <- <-; split; [reflexivity|exact Hm1]|];
    (destruct (children P (VNode c fs co)) as [ch|]; [|discriminate];
     match type of H with match ?G with _ => _ end = _ => destruct G as [[ev0 m2]|] eqn:Eg; [|discriminate] end;
     injection H as <- <-; destruct (Gen _ _ _ _ Hm1 Eg) as [Hs Hm2]; rewrite Hs; split; [reflexivity|exact Hm2]).
Qed.

(* a visit_X method intercepts exactly the nodes of class X *)
Theorem intercept_exactly : forall f v ev, spec_visit f v = Some ev ->
  Forall (fun e => snd e = match handler_of (fst e) with H_generic => false | _ => true end) ev.
Proof.
  induction f as [|f IH]; intros v ev H; [discriminate|].
  destruct v as [| |l|c fs co]; try discriminate. rewrite spec_visit_S in H.
  destruct (handler_of c) eqn:Eh; [|injection H as <-; repeat constructor; cbn; rewrite Eh; reflexivity|];
    (destruct (children P (VNode c fs co)) as [ch|]; [|discriminate]; cbv zeta in H;
     destruct (cat_opt (fun _ cv => spec_visit f cv) ch) as [ev0|] eqn:Eg; [|discriminate];
     injection H as <-; constructor; [cbn; rewrite Eh; reflexivity|]; exact (cat_opt_Forall _ _ _ _ _ (fun _ => IH) _ _ Eg)).
Qed.
End VP.

Section Pre.
Variable P : Type.
Notation value := (value P).

Fixpoint preorder (fuel: nat) (v: value) : option (list cls) :=
  match fuel with
  | O => None
  | S f =>
    match v with
    | VNode c fs co =>
      match children P v with
      | None => None
      | Some ch =>
        option_map (fun r => c :: r)
          ((fix go (l: list (str * value)) : option (list cls) :=
              match l with
              | [] => Some []
              | (_, cv) :: l' => match preorder f cv, go l' with Some a, Some b => Some (a ++ b) | _, _ => None end
              end) ch)
      end
    | _ => None
    end
  end.

Lemma preorder_S : forall f c fs co, preorder (S f) (VNode c fs co) =
  match children P (VNode c fs co) with
  | None => None
  | Some ch => option_map (fun r => c :: r) (cat_opt (fun _ cv => preorder f cv) ch)
  end.
Proof. reflexivity. Qed.

(* as long as no visit_X method omits generic_visit, the traversal is the pre-order one *)
Theorem spec_visit_preorder : forall handler_of, (forall c, handler_of c <> H_stop) -> forall f v,
  spec_visit P handler_of f v =
  option_map (map (fun c => (c, match handler_of c with H_generic => false | _ => true end))) (preorder f v).
Proof.
  intros handler_of Hns. induction f as [|f IH]; intros v; [reflexivity|].
  destruct v as [| |l|c fs co]; try reflexivity. rewrite spec_visit_S, preorder_S. cbv zeta.
  destruct (children P (VNode c fs co)) as [ch|].
  - rewrite (cat_opt_map _ _ _ _ _ _ _ (fun _ => IH)).
    destruct (cat_opt (fun _ cv => preorder f cv) ch); destruct (handler_of c) eqn:E; try destruct (Hns c E); cbn; rewrite ?E; reflexivity.
  - destruct (handler_of c) eqn:E; [reflexivity|destruct (Hns c E)|reflexivity].
Qed.

Theorem generic_visit_is_preorder : forall f v,
  spec_visit P (fun _ => H_generic) f v = option_map (map (fun c => (c, false))) (preorder f v).
Proof. apply (spec_visit_preorder (fun _ => H_generic)). discriminate. Qed.
End Pre.
