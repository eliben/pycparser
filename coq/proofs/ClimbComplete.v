(* C02 / C01: precedence climbing is also COMPLETE for the stratified grammar - every operator/operand
   sequence the grammar derives a tree for is accepted, with exactly that tree.  With ClimbProofs
   (soundness, unambiguity):  climb l = t  <->  D 0 l t. *)
From Coq Require Import List Arith Lia Bool.
Import ListNotations.
From PV Require Import ClimbProofs.

Section CC.
Variable atom op : Type.
Variable prec : op -> nat.
Notation tree := (tree atom op).
Notation rest := (rest atom op).
Notation climb := (climb atom op prec).
Notation inner := (inner atom op prec).
Notation D := (D atom op prec).
Notation Leaf := (Leaf atom op).
Notation Bin := (Bin atom op).

(* fuel-free view of the two loops *)
Definition C (m: nat) (h: tree) (r: rest) (res: tree * rest) : Prop := exists f, climb f m h r = Some res.
Definition IL (p: nat) (h: tree) (r: rest) (res: tree * rest) : Prop := exists f, inner f p h r = Some res.

Lemma climb_S : forall f m lhs r, climb (S f) m lhs r =
  match r with
  | [] => Some (lhs, [])
  | (o, a) :: r1 => if prec o <? m then Some (lhs, r)
                    else match inner f (prec o) (Leaf a) r1 with
                         | None => None
                         | Some (rhs, r2) => climb f m (Bin o lhs rhs) r2 end
  end.
Proof. reflexivity. Qed.
Lemma inner_S : forall f p rhs r, inner (S f) p rhs r =
  match r with
  | [] => Some (rhs, [])
  | (o2, _) :: _ => if p <? prec o2 then
                      match climb f (prec o2) rhs r with
                      | None => None
                      | Some (rhs', r') => inner f p rhs' r' end
                    else Some (rhs, r)
  end.
Proof. reflexivity. Qed.

Lemma mono : forall f, (forall m h r res, climb f m h r = Some res -> forall f', f <= f' -> climb f' m h r = Some res)
                    /\ (forall p h r res, inner f p h r = Some res -> forall f', f <= f' -> inner f' p h r = Some res).
Proof.
  induction f as [|f [IHc IHi]]; split; intros a h r res H f' Hf; try (cbn in H; discriminate H).
  - destruct f' as [|f']; [lia|]. assert (Hf': f <= f') by lia. rewrite climb_S in *.
    destruct r as [|[o x] r1]; [exact H|]. destruct (prec o <? a); [exact H|].
    destruct (inner f (prec o) (Leaf x) r1) as [[rhs r2]|] eqn:E; [|cbv iota in H; discriminate H].
    rewrite (IHi _ _ _ _ E _ Hf'). apply (IHc _ _ _ _ H _ Hf').
  - destruct f' as [|f']; [lia|]. assert (Hf': f <= f') by lia. rewrite inner_S in *.
    destruct r as [|[o x] r1]; [exact H|]. destruct (a <? prec o); [|exact H].
    destruct (climb f (prec o) h ((o, x) :: r1)) as [[rhs' r']|] eqn:E; [|cbv iota in H; discriminate H].
    rewrite (IHc _ _ _ _ E _ Hf'). apply (IHi _ _ _ _ H _ Hf').
Qed.

Lemma fuel_det : forall (A: Type) (g: nat -> option A), (forall f a, g f = Some a -> forall f', f <= f' -> g f' = Some a) ->
  forall a b, (exists f, g f = Some a) -> (exists f, g f = Some b) -> a = b.
Proof.
  intros A g M a b [f1 H1] [f2 H2].
  pose proof (M _ _ H1 (max f1 f2) (Nat.le_max_l _ _)) as E1. pose proof (M _ _ H2 (max f1 f2) (Nat.le_max_r _ _)) as E2. congruence.
Qed.
Lemma C_det : forall m h r a b, C m h r a -> C m h r b -> a = b.
Proof. intros m h r. apply (fuel_det _ (fun f => climb f m h r)). intros f a. apply (proj1 (mono f)). Qed.
Lemma IL_det : forall p h r a b, IL p h r a -> IL p h r b -> a = b.
Proof. intros p h r. apply (fuel_det _ (fun f => inner f p h r)). intros f a. apply (proj2 (mono f)). Qed.
Lemma common_fuel : forall m h r a p h' r' b, C m h r a -> IL p h' r' b ->
  exists f, climb f m h r = Some a /\ inner f p h' r' = Some b.
Proof.
  intros m h r a p h' r' b [f1 H1] [f2 H2]. exists (max f1 f2).
  split; [apply (proj1 (mono f1) _ _ _ _ H1)|apply (proj2 (mono f2) _ _ _ _ H2)]; lia.
Qed.

Lemma C_nil : forall m h, C m h [] (h, []).
Proof. intros. exists 1. reflexivity. Qed.
Lemma C_stop : forall m h o a r, prec o < m -> C m h ((o, a) :: r) (h, (o, a) :: r).
Proof. intros m h o a r H. exists 1. rewrite climb_S. apply Nat.ltb_lt in H. rewrite H. reflexivity. Qed.
Lemma C_step : forall m h o a r rhs r2 res, m <= prec o -> IL (prec o) (Leaf a) r (rhs, r2) -> C m (Bin o h rhs) r2 res ->
  C m h ((o, a) :: r) res.
Proof.
  intros m h o a r rhs r2 res Hm HI HC. destruct (common_fuel _ _ _ _ _ _ _ _ HC HI) as [f [H2 H1]].
  exists (S f). rewrite climb_S. apply Nat.ltb_ge in Hm. rewrite Hm, H1. exact H2.
Qed.
Lemma IL_nil : forall p h, IL p h [] (h, []).
Proof. intros. exists 1. reflexivity. Qed.
Lemma IL_stop : forall p h o a r, prec o <= p -> IL p h ((o, a) :: r) (h, (o, a) :: r).
Proof. intros p h o a r H. exists 1. rewrite inner_S. apply Nat.ltb_ge in H. rewrite H. reflexivity. Qed.
Lemma IL_step : forall p h o a r rhs' r' res, p < prec o -> C (prec o) h ((o, a) :: r) (rhs', r') -> IL p rhs' r' res ->
  IL p h ((o, a) :: r) res.
Proof.
  intros p h o a r rhs' r' res Hp HC HI. destruct (common_fuel _ _ _ _ _ _ _ _ HC HI) as [f [H1 H2]].
  exists (S f). rewrite inner_S. apply Nat.ltb_lt in Hp. rewrite Hp, H1. exact H2.
Qed.

Lemma C_inv_step : forall m h o a r res, m <= prec o -> C m h ((o, a) :: r) res ->
  exists rhs r2, IL (prec o) (Leaf a) r (rhs, r2) /\ C m (Bin o h rhs) r2 res.
Proof.
  intros m h o a r res Hm [f H]. destruct f as [|f]; [discriminate|]. rewrite climb_S in H.
  apply Nat.ltb_ge in Hm. rewrite Hm in H.
  destruct (inner f (prec o) (Leaf a) r) as [[rhs r2]|] eqn:E; [|cbv iota in H; discriminate H].
  exists rhs, r2. split; [exists f; exact E|exists f; exact H].
Qed.
Lemma IL_inv_step : forall p h o a r res, p < prec o -> IL p h ((o, a) :: r) res ->
  exists rhs' r', C (prec o) h ((o, a) :: r) (rhs', r') /\ IL p rhs' r' res.
Proof.
  intros p h o a r res Hp [f H]. destruct f as [|f]; [discriminate|]. rewrite inner_S in H.
  apply Nat.ltb_lt in Hp. rewrite Hp in H.
  destruct (climb f (prec o) h ((o, a) :: r)) as [[rhs' r']|] eqn:E; [|cbv iota in H; discriminate H].
  exists rhs', r'. split; [exists f; exact E|exists f; exact H].
Qed.

Notation head_le := (head_le atom op prec).
Notation head_lt := (head_lt atom op prec).

Lemma C_sound : forall m h r t r', C m h r (t, r') -> exists l, r = l ++ r' /\ D m h l t /\ head_lt m r'.
Proof. intros m h r t r' [f H]. destruct (sound atom op prec f) as [Hc _]. apply (Hc _ _ _ _ _ H). Qed.

Lemma C_idle : forall m t r, head_lt m r -> C m t r (t, r).
Proof. intros m t [|[o a] r] H; [apply C_nil|apply C_stop; exact H]. Qed.

(* climbing at level q = climbing at a higher level q', then continuing at level q *)
Lemma split_fwd : forall q q' h r res, q <= q' -> C q h r res -> exists t' r', C q' h r (t', r') /\ C q t' r' res.
Proof.
  intros q q' h r res Hq [f H]. revert h r res H. induction f as [|f IH]; intros h r res H; [discriminate|].
  assert (H0: C q h r res) by (exists (S f); exact H).
  destruct r as [|[o a] r1]; [exists h, []; split; [apply C_nil|exact H0]|].
  destruct (Nat.lt_ge_cases (prec o) q') as [E|E]; [exists h, ((o, a) :: r1); split; [apply C_stop, E|exact H0]|].
  rewrite climb_S in H. destruct (Nat.ltb_spec (prec o) q) as [|_]; [lia|].
  destruct (inner f (prec o) (Leaf a) r1) as [[rhs r2]|] eqn:Ei; [|discriminate].
  destruct (IH _ _ _ H) as (t' & r' & H1 & H2). exists t', r'. split; [|exact H2].
  eapply C_step; [exact E|exists f; exact Ei|exact H1].
Qed.

Lemma split_bwd : forall q q' h r t' r' res, q <= q' -> C q' h r (t', r') -> C q t' r' res -> C q h r res.
Proof.
  intros q q' h r t' r' res Hq [f H]. revert h r H. induction f as [|f IH]; intros h r H H2; [discriminate|].
  rewrite climb_S in H. destruct r as [|[o a] r1]; [injection H as <- <-; exact H2|].
  destruct (Nat.ltb_spec (prec o) q') as [E|E]; [injection H as <- <-; exact H2|].
  destruct (inner f (prec o) (Leaf a) r1) as [[rhs r2]|] eqn:Ei; [|discriminate].
  eapply C_step; [lia|exists f; exact Ei|]. apply (IH _ _ H H2).
Qed.

Lemma gsplit_bwd : forall d m h r t' r' res, C (m + d) h r (t', r') -> C m t' r' res -> C m h r res.
Proof. intros d m h r t' r' res. apply split_bwd, Nat.le_add_r. Qed.

Lemma consumed_shorter : forall q h o a r1 t' r', q <= prec o -> C q h ((o, a) :: r1) (t', r') -> length r' <= length r1.
Proof.
  intros q h o a r1 t' r' Hq H. destruct (C_sound _ _ _ _ _ H) as (l & E & _ & Hh).
  destruct l as [|x l].
  - cbn in E. subst r'. cbn in Hh. lia.
  - cbn in E. injection E as _ E. rewrite E, app_length. lia.
Qed.

(* the inner loop at level p is climbing at level p+1 *)
Lemma inner_of_climb : forall n p rhs r res, length r <= n -> C (S p) rhs r res -> IL p rhs r res.
Proof.
  induction n as [|n IH]; intros p rhs r res Hn H.
  - destruct r; [|cbn in Hn; lia]. rewrite (C_det _ _ _ _ _ H (C_nil _ _)). apply IL_nil.
  - destruct r as [|[o a] r1]; [rewrite (C_det _ _ _ _ _ H (C_nil _ _)); apply IL_nil|].
    destruct (Nat.le_gt_cases (prec o) p) as [Hle|Hgt].
    + assert (Hlt: prec o < S p) by lia. rewrite (C_det _ _ _ _ _ H (C_stop (S p) rhs o a r1 Hlt)). apply IL_stop. exact Hle.
    + destruct (split_fwd (S p) (prec o) _ _ _ Hgt H) as (t' & r' & H1 & H2).
      eapply IL_step; [exact Hgt|exact H1|]. apply (IH p t' r' res); [|exact H2].
      pose proof (consumed_shorter _ _ _ _ _ _ _ (le_n _) H1). cbn in Hn. lia.
Qed.

Lemma head_le_S : forall q l, head_le q l -> head_le (S q) l /\ head_lt (S q) l.
Proof. intros q [|[o a] l] H; cbn in *; [auto|lia]. Qed.

(* completeness: processing a sequence the grammar derives t for turns the accumulator into t *)
Lemma climb_consumes : forall q h l t, D q h l t -> forall rest res, head_le q rest -> C q t rest res -> C q h (l ++ rest) res.
Proof.
  intros q h l t HD. induction HD as [p h0 | p h0 l t HD IH | p h0 la o a lb ta tb Hp HDa IHa HDb IHb]; intros rest res Hh Hc.
  - exact Hc.
  - apply (split_bwd p (S p) _ _ t rest); [apply Nat.le_succ_diag_r| |exact Hc]. apply IH; [|apply C_idle]; apply head_le_S, Hh.
  - rewrite <- app_assoc. cbn [app]. apply IHa; [cbn; lia|].
    eapply C_step; [lia| |exact Hc].
    apply (inner_of_climb (length (lb ++ rest))); [lia|]. rewrite Hp. apply IHb; [|apply C_idle]; apply head_le_S, Hh.
Qed.

Theorem climb_iff_D : forall m h l t, (exists fuel, climb fuel m h l = Some (t, [])) <-> D m h l t.
Proof.
  intros m h l t. split.
  - intros [f H]. exact (climb_sound_at _ _ _ _ _ _ _ _ H).
  - intros HD. rewrite <- (app_nil_r l). exact (climb_consumes _ _ _ _ HD [] (t, []) I (C_nil _ _)).
Qed.

Theorem climb_iff_grammar : forall a0 l t, (exists fuel, climb fuel 0 (Leaf a0) l = Some (t, [])) <-> D 0 (Leaf a0) l t.
Proof. intros. apply climb_iff_D. Qed.
End CC.
