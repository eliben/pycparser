From Coq Require Import List NArith Bool Arith.
Import ListNotations.
From PV Require Import Regex Base LexTables NodeModel ParserBase ParserDecl ParserMain Api.

(* array of pointers to functions returning pointer to int: derivations from the identifier outward *)
Example ex_C03_inside_out :
  outcome_str (s2l "int *(*fp[3])(char, int *);") = s2l "OK|(FileAST [(Decl 'fp' [] [] [] [] (ArrayDecl (PtrDecl [] (FuncDecl (ParamList [(Typename None [] None (TypeDecl None [] None (IdentifierType ['char']))),(Typename None [] None (PtrDecl [] (TypeDecl None [] None (IdentifierType ['int']))))]) (PtrDecl [] (TypeDecl 'fp' [] None (IdentifierType ['int']))))) (Constant 'int' '3') []) None None)])".
Proof. vm_compute. reflexivity. Qed.
(* specifiers shared by several declarators apply to each *)
Example ex_C03_shared_specifiers :
  outcome_str (s2l "static const int a, *b, c[2];") = s2l "OK|(FileAST [(Decl 'a' ['const'] [] ['static'] [] (TypeDecl 'a' ['const'] None (IdentifierType ['int'])) None None),(Decl 'b' ['const'] [] ['static'] [] (PtrDecl [] (TypeDecl 'b' ['const'] None (IdentifierType ['int']))) None None),(Decl 'c' ['const'] [] ['static'] [] (ArrayDecl (TypeDecl 'c' ['const'] None (IdentifierType ['int'])) (Constant 'int' '2') []) None None)])".
Proof. vm_compute. reflexivity. Qed.
(* _Atomic(T) means the _Atomic-qualified T *)
Example ex_C03_atomic_specifier :
  outcome_str (s2l "_Atomic(int) x;") = s2l "OK|(FileAST [(Decl 'x' ['_Atomic'] [] [] [] (TypeDecl 'x' ['_Atomic'] None (IdentifierType ['int'])) None None)])".
Proof. vm_compute. reflexivity. Qed.
(* witness: with several declarators the shared _Atomic(...) node is mutated - the TypeDecl of the second declaration (p) is named x as well *)
Example ex_C03_atomic_shared_refuted :
  outcome_str (s2l "_Atomic(int) x, *p;") = s2l "OK|(FileAST [(Decl 'x' ['_Atomic'] [] [] [] (TypeDecl 'x' ['_Atomic'] None (IdentifierType ['int'])) None None),(Decl 'p' ['_Atomic'] [] [] [] (PtrDecl [] (TypeDecl 'x' ['_Atomic'] None (IdentifierType ['int']))) None None)])".
Proof. vm_compute. reflexivity. Qed.
