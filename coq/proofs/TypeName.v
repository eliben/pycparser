(* C07 / C02 / C04: type names made of simple type-specifier keywords (`int`, `unsigned long`, ...) or one typedef name,
   as they occur in casts and in sizeof: forward reasoning through p_type_name (p_spec_loop, p_specifier_qualifier_list,
   p_abstract_declarator_opt, _fix_decl_name_type). *)
From Coq Require Import String.
From Coq Require Import List NArith Bool Arith Lia.
Import ListNotations.
From PV Require Import Regex Base AstDefs AstSpec AstImpl GenTables NodeModel Generator ClimbProofs ClimbComplete GenParen GenBinop.
From PV Require Import LexTables ParserTables PyRepr ParserBase ParserDecl ParserMain LexerProofs TableProofs.
From PV Require Import BinaryRefine ExprShape UnaryShape CoordProofs ElseProofs StreamLib RoundTrip Triple RoundTripGen DeclProofs.
Open Scope nat_scope.

Lemma simple_kind_table : forall k, kind_in k tbl_TYPE_SPEC_SIMPLE = true ->
  kind_eqb k K_uALIGNAS = false /\ kind_eqb k K_uATOMIC = false /\ kind_in k tbl_TYPE_QUALIFIER = false /\
  kind_in k tbl_STORAGE_CLASS = false /\ kind_in k tbl_FUNCTION_SPEC = false /\ kind_in k tbl_DECL_START = true /\
  kind_eqb k K_PPHASH = false /\ (kind_eqb k K_PPPRAGMA || kind_eqb k K_uPRAGMA) = false /\ kind_eqb k K_SEMI = false /\
  kind_eqb k K_uSTATIC_ASSERT = false.
Proof. intros k H. destruct k; vm_compute in H; try discriminate H; vm_compute; repeat split. Qed.

Lemma simple_kind_facts : forall k, kind_in k tbl_TYPE_SPEC_SIMPLE = true ->
  kind_eqb k K_uALIGNAS = false /\ kind_eqb k K_uATOMIC = false /\ kind_in k tbl_TYPE_QUALIFIER = false /\
  kind_in k tbl_DECL_START = true.
Proof. intros k H. destruct (simple_kind_table k H) as (E1 & E2 & E3 & _ & _ & E4 & _). auto. Qed.

Lemma decl_start_facts : forall k, kind_in k tbl_DECL_START = true -> kind_eqb k K_LBRACE = false /\ kind_eqb k K_RBRACE = false /\ kind_eqb k K_ELSE = false.
Proof. intros k H. destruct k; vm_compute in H; try discriminate H; repeat split. Qed.

(* the kinds at which the specifier loop stops; dm: declaration mode, where storage classes and function specifiers are read too *)
Definition spec_stop (dm: bool) (k: kind) : Prop :=
  kind_eqb k K_uALIGNAS = false /\ kind_eqb k K_uATOMIC = false /\ kind_in k tbl_TYPE_QUALIFIER = false /\
  dm && kind_in k tbl_STORAGE_CLASS = false /\ dm && kind_in k tbl_FUNCTION_SPEC = false /\
  kind_in k tbl_TYPE_SPEC_SIMPLE = false /\ kind_eqb k K_TYPEID = false /\
  (kind_eqb k K_STRUCT || kind_eqb k K_UNION) = false /\ kind_eqb k K_ENUM = false.
Lemma rparen_stops_spec : spec_stop false K_RPAREN.
Proof. vm_compute. repeat split. Qed.


Section TN.
Variable P : Type.
Notation pstate := (ParserBase.pstate P).
Notation tok := (ParserBase.tok P).
Notation node := (ParserBase.node P).
Notation Up := (StreamLib.Up P).
Notation Spell := (RoundTrip.Spell P).

Lemma tcoord_eq : forall (t: tok) (s: pstate), tcoord P t s = Ok (Some (mkCoord P (curfile P s) (tp t)), s).
Proof. reflexivity. Qed.

Lemma spec_loop_eq : forall f dm st,
  p_spec_loop P (S f) dm st =
  bind P (peek P) (fun t =>
    match t with
    | None => ret P st
    | Some t' =>
      let k := tk t' in
      if kind_eqb k K_uALIGNAS then
        bind P (tok_coord P t') (fun tc => bind P (p_alignment_specifier P f) (fun a =>
        let st1 := set_first P st tc in
        p_spec_loop P f dm (mkSS P (add_alignment P (ss_spec P st1) a) (ss_saw_type P st1) true (ss_first P st1))))
      else
      bind P (if kind_eqb k K_uATOMIC then bind P (peek_kind_k P 2) (fun k2 => ret P (okind_is k2 K_LPAREN)) else ret P false) (fun is_atomic_spec =>
      bind P (tok_coord P t') (fun tc =>
      if is_atomic_spec then
        bind P (p_atomic_specifier P f) (fun a =>
        let st1 := set_first P st tc in
        p_spec_loop P f dm (mkSS P (add_type P (ss_spec P st1) a) true (ss_saw_align P st1) (ss_first P st1)))
      else if kind_in k tbl_TYPE_QUALIFIER then
        bind P (advance P) (fun tq =>
        let st1 := set_first P st tc in
        p_spec_loop P f dm (mkSS P (add_qual P (ss_spec P st1) (tv tq)) (ss_saw_type P st1) (ss_saw_align P st1) (ss_first P st1)))
      else if dm && kind_in k tbl_STORAGE_CLASS then
        bind P (advance P) (fun tq =>
        let st1 := set_first P st tc in
        p_spec_loop P f dm (mkSS P (add_storage P (ss_spec P st1) (tv tq)) (ss_saw_type P st1) (ss_saw_align P st1) (ss_first P st1)))
      else if dm && kind_in k tbl_FUNCTION_SPEC then
        bind P (advance P) (fun tq =>
        let st1 := set_first P st tc in
        p_spec_loop P f dm (mkSS P (add_function P (ss_spec P st1) (tv tq)) (ss_saw_type P st1) (ss_saw_align P st1) (ss_first P st1)))
      else if kind_in k tbl_TYPE_SPEC_SIMPLE then
        bind P (advance P) (fun tq => bind P (tcoord P tq) (fun c2 =>
        let st1 := set_first P st tc in
        p_spec_loop P f dm (mkSS P (add_type P (ss_spec P st1) (mkIdType P [tv tq] c2)) true (ss_saw_align P st1) (ss_first P st1))))
      else if kind_eqb k K_TYPEID then
        if ss_saw_type P st then ret P st
        else
          bind P (advance P) (fun tq => bind P (tcoord P tq) (fun c2 =>
          let st1 := set_first P st tc in
          p_spec_loop P f dm (mkSS P (add_type P (ss_spec P st1) (mkIdType P [tv tq] c2)) true (ss_saw_align P st1) (ss_first P st1))))
      else if kind_eqb k K_STRUCT || kind_eqb k K_UNION then
        bind P (p_struct_or_union_specifier P f) (fun a =>
        let st1 := set_first P st tc in
        p_spec_loop P f dm (mkSS P (add_type P (ss_spec P st1) a) true (ss_saw_align P st1) (ss_first P st1)))
      else if kind_eqb k K_ENUM then
        bind P (p_enum_specifier P f) (fun a =>
        let st1 := set_first P st tc in
        p_spec_loop P f dm (mkSS P (add_type P (ss_spec P st1) a) true (ss_saw_align P st1) (ss_first P st1)))
      else ret P st))
    end).
Proof. reflexivity. Qed.


(* the IdentifierType nodes the loop collects: one per keyword, each with its own coordinate *)
Definition IdNodes (ns: list node) (vs: list str) : Prop := Forall2 (fun n v => exists c, n = mkIdType P [v] (Some c)) ns vs.

(* what the loop, started with st, has collected at st' after keywords spelled vs *)
Definition SpecQ (st: specst P) (vs: list str) (st': specst P) : Prop :=
  exists ns, IdNodes ns vs /\ ss_spec P st' = fold_left (add_type P) ns (ss_spec P st) /\
    ss_saw_type P st' = (ss_saw_type P st || negb (match ns with [] => true | _ => false end)).

Lemma spec_loop_tr : forall pr dm K, spec_stop dm K -> forall kvs, Forall (fun kv => kind_in (fst kv) tbl_TYPE_SPEC_SIMPLE = true) kvs ->
  forall st, Tr P pr (fun f => p_spec_loop P f dm st) kvs (fun k => k = K) (SpecQ st (map snd kvs)).
Proof.
  intros pr dm K HK. induction kvs as [|[k v] kvs IH]; intros HF st; (eapply Tr_S; [intros f; apply spec_loop_eq|]).
  - destruct HK as (E1 & E2 & E3 & E3a & E3b & E4 & E5 & E6 & E7).
    tr_look (Tr_peek P pr (fun k => k = K)) as ? [x [-> ->]]; [exact (fun _ H => H)|]. cbv zeta.
    rewrite E1, E2. eapply Tr_eval; [reflexivity|]. tr_look Tr_tok_coord as tc _; [exact (fun _ H => H)|].
    rewrite E3, E3a, E3b, E4, E5, E6, E7. apply Tr_ret. exists []. split; [constructor|]. split; [reflexivity|]. cbn. apply eq_sym, orb_false_r.
  - inversion HF as [|x y Hk HF']; subst x y. cbn [fst] in Hk. destruct (simple_kind_table k Hk) as (E1 & E2 & E3 & E3a & E3b & _).
    tr_look (Tr_peek P pr (fun k' => k' = k)) as ? [t [-> Ht]]; [reflexivity|]. cbv zeta.
    rewrite Ht, E1, E2. eapply Tr_eval; [reflexivity|]. tr_look (Tr_tok_coord P pr t (fun _ => True)) as tc _; [exact I|].
    rewrite E3, E3a, E3b, !andb_false_r, Hk. tr_tok Tr_advance as tq [_ Hv]. rewrite Hv.
    tr_look (Tr_tcoord_some P pr tq (fun _ => True)) as ? [c2 ->]; [apply nexts_True|]. cbv zeta.
    eapply Tr_mono; [apply (IH HF')|exact (fun _ H => H)|]. intros st' (ns & Hns & Hsp & Hsaw). exists (mkIdType P [v] (Some c2) :: ns).
    split; [constructor; [exists c2; reflexivity|exact Hns]|]. split.
    + rewrite Hsp. cbn [fold_left ss_spec]. unfold set_first. destruct (ss_first P st); reflexivity.
    + rewrite Hsaw. cbn [ss_saw_type]. rewrite orb_true_r. reflexivity.
Qed.

(* from a run to the explicit form in which [spec_loop_run], [DeclTrip.spec_loop_run_d] and [TyRun] are stated *)
Lemma spec_loop_runs : forall dm st kvs K, Tr P (anyst P) (fun f => p_spec_loop P f dm st) kvs (fun k => k = K) (SpecQ st (map snd kvs)) ->
  forall (s: pstate) le (stop: tok) l0, Spell le kvs -> Up s (le ++ stop :: l0) -> tk stop = K ->
  exists f0 ns st' s', (forall f, f0 <= f -> p_spec_loop P f dm st s = Ok (st', s')) /\ Up s' (stop :: l0) /\ Ran P s s' (length le) /\
    IdNodes ns (map snd kvs) /\ ss_spec P st' = fold_left (add_type P) ns (ss_spec P st) /\
    ss_saw_type P st' = (ss_saw_type P st || negb (match ns with [] => true | _ => false end)).
Proof.
  intros dm st kvs K H s le stop l0 HS HU Hk. destruct (H s le stop l0 HS HU Hk I) as (f0 & st' & s' & H1 & H2 & (ns & H3) & H4).
  exists f0, ns, st', s'. split; [exact H1|]. split; [exact H2|]. split; [exact H4|exact H3].
Qed.

Lemma spec_loop_run : forall kvs, Forall (fun kv => kind_in (fst kv) tbl_TYPE_SPEC_SIMPLE = true) kvs ->
  forall st (s: pstate) le (stop: tok) l0, Spell le kvs -> Up s (le ++ stop :: l0) -> tk stop = K_RPAREN ->
  exists f0 ns st' s', (forall f, f0 <= f -> p_spec_loop P f false st s = Ok (st', s')) /\ Up s' (stop :: l0) /\ Ran P s s' (length le) /\
    IdNodes ns (map snd kvs) /\ ss_spec P st' = fold_left (add_type P) ns (ss_spec P st) /\
    ss_saw_type P st' = (ss_saw_type P st || negb (match ns with [] => true | _ => false end)).
Proof.
  intros kvs HF st. exact (spec_loop_runs _ _ _ _ (spec_loop_tr _ false K_RPAREN rparen_stops_spec kvs HF st)).
Qed.

Definition st0 : specst P := mkSS P None false false None.
Definition TyRun (kvs: list (kind * str)) : Prop :=
  forall (s: pstate) le (stop: tok) l0, Spell le kvs -> Up s (le ++ stop :: l0) -> tk stop = K_RPAREN ->
  exists f0 ns st' s', (forall f, f0 <= f -> p_spec_loop P f false st0 s = Ok (st', s')) /\ Up s' (stop :: l0) /\ Ran P s s' (length le) /\
    IdNodes ns (map snd kvs) /\ ss_spec P st' = fold_left (add_type P) ns (ss_spec P st0) /\
    ss_saw_type P st' = (ss_saw_type P st0 || negb (match ns with [] => true | _ => false end)).
Definition TyOK (kvs: list (kind * str)) : Prop :=
  kvs <> [] /\ (exists k v r, kvs = (k, v) :: r /\ kind_in k tbl_DECL_START = true) /\ TyRun kvs.

Lemma TyRun_Tr : forall pr kvs, TyRun kvs -> Tr P pr (fun f => p_spec_loop P f false st0) kvs (fun k => k = K_RPAREN) (SpecQ st0 (map snd kvs)).
Proof.
  intros pr kvs H s le t l0 HS HU Hn _. destruct (H s le t l0 HS HU Hn) as (f0 & ns & st' & s' & H1 & H2 & H3 & H4).
  exists f0, st', s'. split; [exact H1|]. split; [exact H2|]. split; [exists ns; exact H4|exact H3].
Qed.

Lemma simple_tyok : forall kvs, kvs <> [] -> Forall (fun kv => kind_in (fst kv) tbl_TYPE_SPEC_SIMPLE = true) kvs -> TyOK kvs.
Proof.
  intros kvs Hne HF. split; [exact Hne|]. split.
  - destruct kvs as [|[k v] r]; [congruence|]. exists k, v, r. split; [reflexivity|]. pose proof (Forall_inv HF) as Hk. cbn [fst] in Hk.
    exact (proj2 (proj2 (proj2 (simple_kind_facts k Hk)))).
  - exact (spec_loop_run kvs HF st0).
Qed.

Lemma typeid_tyok : forall v, TyOK [(K_TYPEID, v)].
Proof.
  intros v. split; [discriminate|]. split; [exists K_TYPEID, v, []; split; reflexivity|].
  refine (spec_loop_runs false st0 [(K_TYPEID, v)] K_RPAREN _). eapply Tr_S; [intros f; apply spec_loop_eq|].
  tr_look (Tr_peek P (anyst P) (fun k => k = K_TYPEID)) as ? [t [-> Ht]]; [reflexivity|]. cbv zeta. rewrite Ht. kred.
  eapply Tr_eval; [reflexivity|]. tr_look (Tr_tok_coord P (anyst P) t (fun _ => True)) as tc _; [exact I|].
  change (kind_in K_TYPEID tbl_TYPE_QUALIFIER) with false. change (kind_in K_TYPEID tbl_TYPE_SPEC_SIMPLE) with false. cbn [andb st0 ss_saw_type].
  tr_tok Tr_advance as tq [_ Hv]. rewrite Hv. tr_look (Tr_tcoord_some P (anyst P) tq (fun k => k = K_RPAREN)) as ? [c2 ->]; [exact (fun _ H => H)|]. cbv zeta.
  eapply Tr_mono; [apply (spec_loop_tr _ false K_RPAREN rparen_stops_spec [] (Forall_nil _))|exact (fun _ H => H)|].
  intros st' (ns & Hns & Hsp & Hsaw). inversion Hns. subst ns. exists [mkIdType P [v] (Some c2)].
  split; [constructor; [exists c2; reflexivity|constructor]|]. split; [exact Hsp|exact Hsaw].
Qed.

Lemma all_names_ids : forall ns vs (s: pstate), IdNodes ns vs -> all_names P ns s = Ok (map (fun v => VStr v) vs, s).
Proof.
  intros ns vs s H. induction H as [|n v ns vs [c ->] _ IH]; [reflexivity|].
  unfold all_names in *. eapply bind_then; [reflexivity|]. eapply bind_then; [exact IH|]. reflexivity.
Qed.

Lemma find_ids : forall ns vs, IdNodes ns vs -> find (fun tn => negb (is_cls P C_IdentifierType tn)) ns = None.
Proof. intros ns vs H. induction H as [|n v ns vs [c ->] _ IH]; [reflexivity|]. cbn [find]. change (negb (is_cls P C_IdentifierType (mkIdType P [v] (Some c)))) with false. exact IH. Qed.

Lemma find_typedecl_build : forall ls fs co fuel (s: pstate), length ls < fuel ->
  find_typedecl P fuel (build P ls (typedecl P fs co)) s = Ok (typedecl P fs co, s).
Proof.
  induction ls as [|l ls IH]; intros fs co fuel s Hf; (destruct fuel as [|fuel]; [inversion Hf|]); [reflexivity|].
  change (build P (l :: ls) (typedecl P fs co)) with (wrap P l (build P ls (typedecl P fs co))). cbn [find_typedecl]. rewrite wrap_not_typedecl. unfold bind, getA, lift_opt. rewrite get_type_wrap. unfold ret. apply IH. cbn [length] in Hf. lia.
Qed.

Lemma map_typedecl_build : forall g ls fs co t' fuel (s: pstate), length ls < fuel -> g (typedecl P fs co) s = Ok (t', s) ->
  map_typedecl P fuel g (build P ls (typedecl P fs co)) s = Ok (build P ls t', s).
Proof.
  intros g. induction ls as [|l ls IH]; intros fs co t' fuel s Hf Hg; (destruct fuel as [|fuel]; [inversion Hf|]); [exact Hg|].
  change (build P (l :: ls) ?x) with (wrap P l (build P ls x)). cbn [map_typedecl]. rewrite wrap_not_typedecl.
  unfold bind at 1, getA at 1, lift_opt at 1. rewrite get_type_wrap. unfold ret at 1. cbv beta iota. unfold bind at 1. rewrite (IH fs co t') by (cbn [length] in Hf; try lia; exact Hg).
  unfold setA, lift_opt. rewrite set_type_wrap. reflexivity.
Qed.

(* _fix_decl_name_type: along a declarator chain that ends in a TypeDecl, under a Decl or a Typename.
   D nm t: the outer node with name nm and type t; q: its qualifiers *)
Lemma fix_chain : forall (D: node -> node -> node) q,
  (forall nm t, is_cls P C_TypeDecl (D nm t) = false) -> (forall nm t, get_attr P a_type (D nm t) = Some t) ->
  (forall nm t t', set_attr P a_type t' (D nm t) = Some (D nm t')) -> (forall nm t nm', set_attr P a_name nm' (D nm t) = Some (D nm' t)) ->
  (forall nm t, get_attr P a_quals (D nm t) = Some (VList q)) ->
  forall nm ls dn q0 al ty co ns v0 vs c0 fuel (s: pstate), length ls + 1 < fuel -> IdNodes ns vs ->
  fix_decl_name_type P fuel (D nm (build P ls (typedecl P [dn; q0; al; ty] co))) (mkIdType P [v0] (Some c0) :: ns) s =
  Ok (D dn (build P ls (typedecl P [dn; VList q; al; mkN P C_IdentifierType [VList (map (fun v => VStr v) (v0 :: vs))] (Some c0)] co)), s).
Proof.
  intros D q D_cls D_type D_set_type D_set_name D_quals nm ls dn q0 al ty co ns v0 vs c0 fuel s Hf Hns. destruct fuel as [|fuel]; [inversion Hf|].
  assert (Hids: IdNodes (mkIdType P [v0] (Some c0) :: ns) (v0 :: vs)) by (constructor; [exists c0; reflexivity|exact Hns]).
  unfold fix_decl_name_type. cbn [find_typedecl map_typedecl]. rewrite !D_cls. unfold bind, getA, setA, lift_opt, ret.
  rewrite D_type, find_typedecl_build by lia. change (get_attr P a_declname (typedecl P [dn; q0; al; ty] co)) with (Some dn).
  cbv beta iota. rewrite D_set_name, D_quals, (find_ids _ _ Hids), (all_names_ids _ _ s Hids), D_type.
  change (coordA P (mkIdType P [v0] (Some c0)) s) with (@Ok P (option (coord P) * pstate) (Some c0, s)). cbv beta iota.
  rewrite D_cls. erewrite map_typedecl_build; [|lia|reflexivity]. rewrite D_set_type. reflexivity.
Qed.

Definition tn0 (co: option (coord P)) : node := mkN P C_Typename [VStr []; vstrs P []; VNone; empty_TypeDecl P] co.
Definition tn_res (names: list node) (c0 co: option (coord P)) : node :=
  VNode C_Typename [VNone; VList []; VNone; VNode C_TypeDecl [VNone; VList []; VNone; VNode C_IdentifierType [VList names] c0] None] co.

Lemma fix_tn : forall co n0 ns v0 vs c0 (s: pstate), n0 = mkIdType P [v0] (Some c0) -> IdNodes ns vs ->
  fix_decl_name_type P WF (tn0 co) (n0 :: ns) s = Ok (tn_res (map (fun v => VStr v) (v0 :: vs)) (Some c0) co, s).
Proof.
  intros co n0 ns v0 vs c0 s ->.
  exact (fix_chain (fun nm t => VNode C_Typename [nm; VList []; VNone; t] co) [] (fun _ _ => eq_refl) (fun _ _ => eq_refl) (fun _ _ _ => eq_refl)
           (fun _ _ _ => eq_refl) (fun _ _ => eq_refl) (VStr []) [] VNone VNone VNone VNone None ns v0 vs c0 WF s (proj1 (Nat.ltb_lt 1 WF) eq_refl)).
Qed.

(* fix_atomic_specifiers finds no _Atomic specifier in such a type name and leaves it alone *)
Lemma fix_atomic_tn : forall names c0 co (s: pstate), fix_atomic_specifiers P WF (tn_res names c0 co) s = Ok (tn_res names c0 co, s).
Proof. reflexivity. Qed.

Lemma type_name_eq : forall f,
  p_type_name P (S f) =
  bind P (p_specifier_qualifier_list P f) (fun spec => bind P (p_abstract_declarator_opt P f) (fun decl =>
  bind P (match decl with
          | Some d => coordA P d
          | None => match s_type P spec with
                    | t0 :: _ => coordA P t0
                    | [] => match s_alignment P spec with a0 :: _ => coordA P a0 | [] => ret P None end
                    end
          end) (fun co =>
  bind P (fix_decl_name_type P WF (mkN P C_Typename [VStr []; vstrs P (s_qual P spec); VNone; opt_or_empty_typedecl P decl] co) (s_type P spec))
         (fun fixed => fix_atomic_specifiers P WF fixed)))).
Proof. reflexivity. Qed.

Lemma sql_eq : forall f,
  p_specifier_qualifier_list P (S f) =
  bind P (p_spec_loop P f false (mkSS P None false false None)) (fun st =>
    match ss_spec P st with
    | None => bind P (cur_file P) (fun fl => fail P (L_file P fl) (s2l "Invalid specifier list"))
    | Some spec =>
      if negb (ss_saw_type P st) && negb (ss_saw_align P st) then fail P (loc_of P (ss_first P st)) (s2l "Missing type in declaration")
      else ret P spec
    end).
Proof. reflexivity. Qed.

Lemma ado_eq : forall f, p_abstract_declarator_opt P (S f) =
  bind P (peek_kind P) (fun k =>
    if okind_is k K_TIMES then
      bind P (p_pointer P f) (fun ptr => bind P (peek_kind P) (fun k2 =>
      bind P (if okind_is k2 K_LPAREN || okind_is k2 K_LBRACKET then p_direct_abstract_declarator P f else ret P (empty_TypeDecl P)) (fun decl =>
      match ptr with Some p => bind P (type_modify_decl P WF decl p) (fun d => ret P (Some d)) | None => crash P CK_Assertion end)))
    else if okind_is k K_LPAREN || okind_is k K_LBRACKET then bind P (p_direct_abstract_declarator P f) (fun d => ret P (Some d))
    else ret P None).
Proof. reflexivity. Qed.

Lemma fold_types : forall ns sp, fold_left (add_type P) ns (Some sp) =
  Some (mkSpec P (s_qual P sp) (s_storage P sp) (s_type P sp ++ ns) (s_function P sp) (s_alignment P sp)).
Proof.
  induction ns as [|n ns IH]; intros sp; cbn [fold_left]; [rewrite app_nil_r; destruct sp; reflexivity|].
  unfold add_type at 2. cbn [spec_or_new]. rewrite IH. cbn. rewrite <- app_assoc. reflexivity.
Qed.

Definition tn_emb (vs: list str) : value unit :=
  VNode C_Typename [VNone; VList []; VNone; VNode C_TypeDecl [VNone; VList []; VNone; VNode C_IdentifierType [VList (map (fun v => VStr v) vs)] None] None] None.

Lemma strip_strs : forall vs, map (@strip (coord P)) (map (fun v => VStr v) vs) = map (fun v => VStr v) vs.
Proof. induction vs as [|v vs IH]; [reflexivity|]. cbn [map strip]. rewrite IH. reflexivity. Qed.

Lemma spec_from_st0 : forall v0 vs st', SpecQ st0 (v0 :: vs) st' ->
  exists c0 ns, IdNodes ns vs /\ ss_spec P st' = Some (mkSpec P [] [] (mkIdType P [v0] (Some c0) :: ns) [] []) /\ ss_saw_type P st' = true.
Proof.
  intros v0 vs st' (ns & Hns & Hsp & Hsaw). inversion Hns as [|n0 v0' ns' vs' [c0 En0] Hns' E1]. subst.
  exists c0, ns'. split; [exact Hns'|]. split; [|exact Hsaw].
  rewrite Hsp. cbn [ss_spec st0 fold_left]. unfold add_type at 2. cbn [spec_or_new]. rewrite fold_types. reflexivity.
Qed.

Lemma sql_tr : forall pr kvs, TyOK kvs -> Tr P pr (p_specifier_qualifier_list P) kvs (fun k => k = K_RPAREN)
  (fun spec => exists v0 vs c0 ns, map snd kvs = v0 :: vs /\ IdNodes ns vs /\ spec = mkSpec P [] [] (mkIdType P [v0] (Some c0) :: ns) [] []).
Proof.
  intros pr kvs (Hne & _ & HR). eapply Tr_S; [apply sql_eq|]. eapply Tr_then; [exact (TyRun_Tr pr kvs HR)|]. intros st' HQ.
  destruct kvs as [|[k0 v0] kvs]; [congruence|]. destruct (spec_from_st0 _ _ _ HQ) as (c0 & ns & Hns & Hsp & Hsaw). rewrite Hsp, Hsaw.
  apply Tr_ret. exists v0, (map snd kvs), c0, ns. auto.
Qed.

Lemma ado_none : forall pr, Tr P pr (p_abstract_declarator_opt P) [] (fun k => k = K_RPAREN) (fun d => d = None).
Proof.
  intros pr. eapply Tr_S; [apply ado_eq|]. tr_look (Tr_peek_kind P pr (fun k => k = K_RPAREN)) as ? [k [-> ->]]; [exact (fun _ H => H)|].
  apply Tr_ret. reflexivity.
Qed.

Lemma type_name_tr : forall pr kvs, TyOK kvs ->
  Tr P pr (p_type_name P) kvs (fun k => k = K_RPAREN) (fun N => strip N = tn_emb (map snd kvs)).
Proof.
  intros pr kvs HT. eapply Tr_S; [apply type_name_eq|]. eapply Tr_then; [exact (sql_tr pr kvs HT)|].
  intros spec (v0 & vs & c0 & ns & -> & Hns & ->). eapply Tr_first; [apply ado_none|exact (fun _ H => H)|]. intros ? ->. cbn [s_type s_qual].
  eapply Tr_eval; [reflexivity|]. eapply Tr_eval; [intros s; exact (fix_tn (Some c0) _ ns v0 vs c0 s eq_refl Hns)|].
  eapply Tr_val; [apply fix_atomic_tn|]. unfold tn_res, tn_emb. cbn [strip map]. rewrite strip_strs. reflexivity.
Qed.

Lemma type_name_run : forall kvs, TyOK kvs ->
  forall (s: pstate) le (stop: tok) l0, Spell le kvs -> Up s (le ++ stop :: l0) -> tk stop = K_RPAREN ->
  exists f0 N s', (forall f, f0 <= f -> p_type_name P f s = Ok (N, s')) /\ Up s' (stop :: l0) /\ Ran P s s' (length le) /\
    strip N = tn_emb (map snd kvs).
Proof.
  intros kvs HT s le stop l0 HS HU Hst. destruct (type_name_tr (anyst P) kvs HT s le stop l0 HS HU Hst I) as (f0 & N & s' & H1 & H2 & H3 & H4).
  exists f0, N, s'. auto.
Qed.

Lemma tptn_type : forall kvs, TyOK kvs ->
  forall (s: pstate) (lp: tok) le (rpt: tok) l0, tk lp = K_LPAREN -> Spell le kvs -> tk rpt = K_RPAREN -> Up s (lp :: le ++ rpt :: l0) ->
  exists f0 N s', (forall f, f0 <= f -> try_paren_type_name P f s = Ok (Some (N, idx P s, lp), s')) /\ Up s' l0 /\
    Ran P s s' (S (S (length le))) /\ strip N = tn_emb (map snd kvs).
Proof.
  intros kvs HT s lp le rpt l0 Hlp HS Hrp HU. pose proof HT as (_ & (k0 & v0 & kvs' & Ekvs & Hk0) & _).
  cut (Ev (try_paren_type_name P) s (fun r s' => exists N, r = Some (N, idx P s, lp) /\ Up s' l0 /\ Ran P s s' (S (S (length le))) /\ strip N = tn_emb (map snd kvs))).
  { intros (f0 & r & s' & H & N & -> & H2). exists f0, N, s'. split; assumption. }
  eapply Ev_S; [apply (tptn_eq P)|]. eapply Ev_step; [apply mark_eq|]. cbv beta.
  destruct (accept_hit P s lp _ K_LPAREN HU) as [s1 [H1 [HU1 HC1]]]; [rewrite Hlp; reflexivity|]. eapply Ev_step; [exact H1|]. cbv beta iota.
  (* the first token of the type name starts a declaration *)
  pose proof HS as HS'. rewrite Ekvs in HS'. destruct (RoundTrip.Spell_cons_inv P _ _ _ _ HS') as [x [le' [El [Hkx _]]]].
  pose proof HU1 as HU1'. rewrite El in HU1'. apply Ev_bind.
  apply (Ev_mono _ _ _ _ _ _ (Tr_starts P (anyst P) tbl_DECL_START (fun k => k = k0) s1 [] x _ eq_refl HU1' Hkx I)). intros ? s2 (HU2 & (k & -> & ->) & HR2).
  change (Up s2 ((x :: le') ++ rpt :: l0)) in HU2. rewrite <- El in HU2. rewrite Hk0. cbn [negb]. apply Ev_bind.
  apply (Ev_mono _ _ _ _ _ _ (type_name_tr (anyst P) kvs HT s2 le rpt l0 HS HU2 Hrp I)). intros N s3 (HU3 & HN & HR3).
  destruct (accept_hit P s3 rpt _ K_RPAREN HU3) as [s4 [H4 [HU4 HC4]]]; [rewrite Hrp; reflexivity|]. eapply Ev_step; [exact H4|]. cbv beta iota.
  apply Ev_ret. exists N. split; [reflexivity|]. split; [exact HU4|]. split; [cost_tac|exact HN].
Qed.

Lemma tptn_then : forall pr kvs v1 v2 B (g: nat -> option (node * nat * tok) -> M P B) k2 n2 (Q: B -> Prop), TyOK kvs ->
  (forall N mk lp, strip N = tn_emb (map snd kvs) -> Tr P pr (fun f => g f (Some (N, mk, lp))) k2 n2 Q) ->
  Tr P pr (fun f => bind P (try_paren_type_name P f) (g f)) ((K_LPAREN, v1) :: kvs ++ (K_RPAREN, v2) :: k2) n2 Q.
Proof.
  intros pr kvs v1 v2 B g k2 n2 Q HT Hg.
  replace ((K_LPAREN, v1) :: kvs ++ (K_RPAREN, v2) :: k2) with (((K_LPAREN, v1) :: kvs ++ [(K_RPAREN, v2)]) ++ k2) by (cbn [app]; rewrite <- app_assoc; reflexivity).
  eapply (Tr_bind P pr _ _ _ _ _ _ _ _ (fun r => exists N mk lp, r = Some (N, mk, lp) /\ strip N = tn_emb (map snd kvs)));
    [|apply nexts_True|intros r (N & mk & lp & -> & HN); exact (Hg N mk lp HN)].
  intros s le t l0 HS HU _ _. destruct (RoundTrip.Spell_cons_inv P _ _ _ _ HS) as [lp [l1 [-> [Hlp [_ HS1]]]]].
  destruct (RoundTrip.Spell_app_inv P _ _ _ HS1) as [lt [l2 [-> [HSt HS2]]]]. destruct (Spell_one P _ _ _ HS2) as [rpt [-> [Hrp _]]].
  cbn [app] in HU. rewrite <- app_assoc in HU.
  destruct (tptn_type kvs HT s lp lt rpt _ Hlp HSt Hrp HU) as (f0 & N & s' & H1 & H2 & H3 & H4). exists f0, (Some (N, idx P s, lp)), s'.
  split; [exact H1|]. split; [exact H2|]. split; [exists N, (idx P s), lp; auto|]. cost_tac.
Qed.

Lemma tptn_miss : forall pr, Tr P pr (try_paren_type_name P) [] (fun k => kind_eqb k K_LPAREN = false) (fun r => r = None).
Proof.
  intros pr. eapply Tr_S; [apply (tptn_eq P)|]. tr_look Tr_mark as mk _; [exact (fun _ H => H)|].
  tr_look Tr_accept_miss as ? ->; [exact (fun _ H => H)|]. apply Tr_ret. reflexivity.
Qed.

Lemma cast_type : forall kts ko Xo, TyOK kts ->
  first_ok ko -> CastS P ko Xo ->
  CastS P ((K_LPAREN, s2l "(") :: kts ++ (K_RPAREN, s2l ")") :: ko) (VNode C_Cast [tn_emb (map snd kts); Xo] None).
Proof.
  intros kts ko Xo HT (k & v & rest & -> & _ & Hlb & _) HO. apply Tr_LevelS. eapply Tr_S; [apply (cast_eq P)|].
  apply tptn_then; [exact HT|]. intros Nt mk lp HNt. cbv iota beta.
  tr_look (Tr_peek_kind P (anyst P) (fun k' => k' = k)) as ? [? [-> ->]]; [reflexivity|]. cbn [okind_is]. rewrite Hlb.
  eapply Tr_then; [exact (LevelS_Tr _ _ _ _ _ _ HO)|]. intros No HNo. tr_look Tr_tcoord as c _; [exact (fun _ H => H)|].
  apply Tr_ret. unfold mkN. cbn [strip map]. rewrite HNt, HNo. reflexivity.
Qed.

Lemma sizeof_type : forall kts, TyOK kts ->
  CastS P ((K_SIZEOF, s2l "sizeof") :: (K_LPAREN, s2l "(") :: kts ++ [(K_RPAREN, s2l ")")])
          (VNode C_UnaryOp [VStr (s2l "sizeof"); tn_emb (map snd kts)] None).
Proof.
  intros kts HT. apply Tr_LevelS. eapply Tr_S; [apply (cast_eq P)|].
  eapply Tr_first; [apply tptn_miss|reflexivity|]. intros ? ->. eapply Tr_S; [apply (unary_eq P)|].
  tr_look (Tr_peek_kind P (anyst P) (fun k => k = K_SIZEOF)) as ? [? [-> ->]]; [reflexivity|]. cbn [okind_is okind_in kind_in existsb]. kred. cbn [orb].
  tr_tok Tr_advance as t [_ Hv]. apply tptn_then; [exact HT|]. intros Nt mk lp HNt. cbv iota beta.
  tr_look Tr_tcoord as c _; [exact (fun _ H => H)|]. apply Tr_ret. unfold mkN. cbn [strip map]. rewrite Hv, HNt. reflexivity.
Qed.
End TN.
