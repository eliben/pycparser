(* C18 / C06: the token stream is consumed only by delivery, error items cannot be skipped:
   if parse() succeeds then EVERY item the lexer produced was a token (no error item, no lexer
   crash) and all of them were delivered.  Proved for the whole parser model (all 71 mutually
   recursive productions and every helper) by one generic argument: every primitive preserves
   the relation, bind composes it. *)
From Coq Require Import List NArith Bool Arith Lia.
Import ListNotations.
From PV Require Import Regex Base LexTables ParserTables AstDefs AstSpec AstImpl PyRepr NodeModel ParserBase ParserDecl ParserMain.
Open Scope nat_scope.

Section CP.
Variable P : Type.
Notation M := (M P).
Notation pstate := (pstate P).

Definition is_tok (i: pitem P) : bool := match i with PTok _ _ _ _ _ => true | _ => false end.

(* transition relation: the undelivered items only shrink, and only tokens are dropped *)
Definition R (s s': pstate) : Prop := exists d, raw P s = d ++ raw P s' /\ forallb is_tok d = true.
(* state invariant: an end-of-input sentinel in the buffer means the lexer is exhausted *)
Definition J (s: pstate) : Prop := In None (after P s ++ before P s) -> raw P s = [].

Lemma R_refl : forall s, R s s.
Proof. intros s. exists []. split; reflexivity. Qed.
Lemma R_trans : forall a b c, R a b -> R b c -> R a c.
Proof.
  intros a b c [d1 [E1 F1]] [d2 [E2 F2]]. exists (d1 ++ d2). split.
  - rewrite E1, E2. apply app_assoc.
  - rewrite forallb_app, F1, F2. reflexivity.
Qed.

Definition good {A} (m: M A) : Prop := forall s a s', J s -> m s = Ok (a, s') -> R s s' /\ J s'.

Lemma good_ret : forall A (a: A), good (ret P a).
Proof. intros A a s a' s' HJ H. inversion H; subst. split; [apply R_refl|exact HJ]. Qed.
Lemma good_bind : forall A B (m: M A) (f: A -> M B), good m -> (forall a, good (f a)) -> good (bind P m f).
Proof.
  intros A B m f Hm Hf s b s' HJ H. unfold bind in H. destruct (m s) as [[a s1]| | |] eqn:E; try discriminate.
  destruct (Hm _ _ _ HJ E) as [R1 J1]. destruct (Hf a _ _ _ J1 H) as [R2 J2]. split; [eapply R_trans; eauto|exact J2].
Qed.
Lemma good_fail : forall A l m, good (fail P (A:=A) l m).
Proof. intros A l m s a s' _ H. discriminate. Qed.
Lemma good_crash : forall A k, good (crash P (A:=A) k).
Proof. intros A k s a s' _ H. discriminate. Qed.
Lemma good_oof : forall A, good (out_of_fuel P (A:=A)).
Proof. intros A s a s' _ H. discriminate. Qed.
Lemma good_get : good (get P).
Proof. intros s a s' HJ H. inversion H; subst. split; [apply R_refl|exact HJ]. Qed.
Lemma good_lift_opt : forall A k (o: option A), good (lift_opt P k o).
Proof. intros A k [a|]; [apply good_ret|apply good_crash]. Qed.

Lemma good_same_stream : forall A (m: M A),
  (forall s a s', m s = Ok (a, s') -> raw P s' = raw P s /\ after P s' = after P s /\ before P s' = before P s) -> good m.
Proof.
  intros A m H s a s' HJ E. destruct (H _ _ _ E) as (Hr & Ha & Hb). split.
  - exists []. rewrite Hr. split; reflexivity.
  - unfold J in *. rewrite Hr, Ha, Hb. exact HJ.
Qed.

Lemma good_push_scope : good (push_scope P).
Proof. apply good_same_stream. intros s a s' H. inversion H; subst. cbn. auto. Qed.
Lemma good_pop_scope : good (pop_scope P).
Proof. apply good_same_stream. intros s a s' H. unfold pop_scope in H. destruct (scopes P s) as [|x [|y r]]; inversion H; subst. cbn. auto. Qed.
Lemma good_set_top : forall f, good (set_top P f).
Proof. intros f. apply good_same_stream. intros s a s' H. unfold set_top in H. destruct (scopes P s); inversion H; subst. cbn. auto. Qed.
Lemma good_mark : good (mark P).
Proof. unfold mark. apply good_bind; [apply good_get|intros; apply good_ret]. Qed.
Lemma good_cur_file : good (cur_file P).
Proof. unfold cur_file. apply good_bind; [apply good_get|intros; apply good_ret]. Qed.
Lemma good_is_type_in_scope : forall n, good (is_type_in_scope P n).
Proof. intros. unfold is_type_in_scope. apply good_bind; [apply good_get|intros; apply good_ret]. Qed.

Lemma good_add_typedef_name : forall n c, good (add_typedef_name P n c).
Proof.
  intros n c. unfold add_typedef_name. apply good_bind; [apply good_get|]. intros s0.
  destruct (scopes P s0); [apply good_crash|]. destruct (scope_get n l) as [[|]|]; try apply good_set_top. apply good_fail.
Qed.
Lemma good_add_identifier : forall n c, good (add_identifier P n c).
Proof.
  intros n c. unfold add_identifier. apply good_bind; [apply good_get|]. intros s0.
  destruct (scopes P s0); [apply good_crash|]. destruct (scope_get n l) as [[|]|]; try apply good_set_top. apply good_fail.
Qed.

(* delivery: the only place where items leave the lexer *)
Lemma good_deliver1 : good (deliver1 P).
Proof.
  intros s a s' HJ H. unfold deliver1 in H. destruct (raw P s) as [|i r] eqn:Er.
  - inversion H; subst. cbn. split.
    + exists []. cbn. rewrite Er. split; reflexivity.
    + intros _. reflexivity.
  - destruct i as [k v p fa|msg p f|]; try discriminate.
    assert (Hnone: ~ In None (after P s ++ before P s)).
    { intros Hin. specialize (HJ Hin). congruence. }
    assert (Hgen: forall s1, raw P s1 = r -> after P s1 = after P s ++ [Some (mkTok P (if kind_eqb k K_ID then if is_type_in (Some v) (scopes P s) then K_TYPEID else K_ID else k) v p)] ->
                  before P s1 = before P s -> R s s1 /\ J s1).
    { intros s1 H1 H2 H3. split.
      - exists [PTok P k v p fa]. rewrite Er, H1. split; reflexivity.
      - unfold J. rewrite H2, H3. intros Hin. exfalso. apply Hnone.
        rewrite <- app_assoc in Hin. apply in_app_or in Hin. destruct Hin as [Hin|Hin]; [apply in_or_app; left; exact Hin|].
        cbn in Hin. destruct Hin as [Hin|Hin]; [discriminate|apply in_or_app; right; exact Hin]. }
    destruct (kind_eqb k K_LBRACE).
    + inversion H; subst. apply Hgen; reflexivity.
    + destruct (kind_eqb k K_RBRACE).
      * destruct (scopes P s) as [|x [|y t]]; try discriminate. inversion H; subst. apply Hgen; reflexivity.
      * inversion H; subst. apply Hgen; reflexivity.
Qed.

Lemma good_fill_aux : forall fuel n, good (fill_aux P fuel n).
Proof.
  induction fuel as [|f IH]; intros n; cbn [fill_aux]; [apply good_ret|].
  apply good_bind; [apply good_get|]. intros s0. destruct (Nat.ltb (length (after P s0)) n); [|apply good_ret].
  apply good_bind; [apply good_deliver1|]. intros _. apply good_bind; [apply good_get|]. intros s1.
  destruct (last_is_none P (after P s1)); [apply good_ret|apply IH].
Qed.
Lemma good_fill : forall n, good (fill P n).
Proof. intros. apply good_fill_aux. Qed.

Lemma good_peek_k : forall k, good (peek_k P k).
Proof.
  intros k. unfold peek_k. apply good_bind; [apply good_fill|]. intros _. apply good_bind; [apply good_get|]. intros s0.
  destruct (nth_error (after P s0) (Nat.pred k)); [apply good_ret|apply good_crash].
Qed.

Lemma good_next_tok : good (next_tok P).
Proof.
  unfold next_tok. apply good_bind; [apply good_fill|]. intros _ s a s' HJ H.
  destruct (after P s) as [|t r] eqn:Ea; [discriminate|]. inversion H; subst. cbn. split.
  - exists []. split; reflexivity.
  - unfold J in *. cbn. intros Hin. apply HJ. rewrite Ea.
    apply in_app_or in Hin. destruct Hin as [Hin|Hin].
    + apply in_or_app. left. right. exact Hin.
    + destruct Hin as [Hin|Hin]; [apply in_or_app; left; left; exact Hin|apply in_or_app; right; exact Hin].
Qed.

Lemma unwind_perm : forall n b a b' a', unwind P n b a = (b', a') -> forall x, In x (a' ++ b') <-> In x (a ++ b).
Proof.
  induction n as [|n IH]; intros b a b' a' H x; cbn in H.
  - inversion H; subst. tauto.
  - destruct b as [|y b0]; [inversion H; subst; tauto|].
    rewrite (IH _ _ _ _ H x). rewrite !in_app_iff. cbn. tauto.
Qed.

Lemma good_reset : forall mk, good (reset P mk).
Proof.
  intros mk s a s' HJ H. unfold reset in H. destruct (unwind P (nsub (idx P s) mk) (before P s) (after P s)) as [b a0] eqn:Eu.
  inversion H; subst. cbn. split.
  - exists []. split; reflexivity.
  - unfold J in *. cbn. intros Hin. apply HJ. apply (unwind_perm _ _ _ _ _ Eu). exact Hin.
Qed.

Hint Resolve good_ret good_fail good_crash good_oof good_get good_lift_opt good_push_scope good_pop_scope good_set_top
  good_mark good_cur_file good_is_type_in_scope good_add_typedef_name good_add_identifier good_deliver1 good_fill
  good_peek_k good_next_tok good_reset : good.

Ltac good_step :=
  match goal with
  | |- good (bind _ _ _) => apply good_bind; [|intros]
  | |- good (ret _ _) => apply good_ret
  | |- good (fail _ _ _) => apply good_fail
  | |- good (crash _ _) => apply good_crash
  | |- good (out_of_fuel _) => apply good_oof
  | |- good (lift_opt _ _ _) => apply good_lift_opt
  | |- good (match ?x with _ => _ end) => destruct x
  | |- good (let _ := _ in _) => cbv zeta
  | |- good (?f _) => progress (cbv beta)
  | _ => solve [eauto 3 with good]
  end.
Ltac good_tac := repeat good_step.

Lemma good_peek : good (peek P). Proof. apply good_peek_k. Qed.
Lemma good_peek_kind_k : forall k, good (peek_kind_k P k). Proof. intros. unfold peek_kind_k. good_tac. Qed.
Lemma good_peek_kind : good (peek_kind P). Proof. apply good_peek_kind_k. Qed.
Lemma good_tok_coord : forall t, good (tok_coord P t). Proof. intros. unfold tok_coord. good_tac. Qed.
Hint Resolve good_peek good_peek_kind_k good_peek_kind good_tok_coord : good.
Lemma good_advance : good (advance P). Proof. unfold advance. good_tac. Qed.
Hint Resolve good_advance : good.
Lemma good_accept : forall k, good (accept P k). Proof. intros. unfold accept. good_tac. Qed.
Lemma good_expect : forall k, good (expect P k). Proof. intros. unfold expect. good_tac. Qed.
Lemma good_starts_declaration : good (starts_declaration P). Proof. unfold starts_declaration. good_tac. Qed.
Lemma good_starts_expression : good (starts_expression P). Proof. unfold starts_expression. good_tac. Qed.
Hint Resolve good_accept good_expect good_starts_declaration good_starts_expression : good.
Lemma good_starts_statement : good (starts_statement P). Proof. unfold starts_statement. good_tac. Qed.
Lemma good_starts_declarator : forall b, good (starts_declarator P b). Proof. intros. unfold starts_declarator. good_tac. Qed.
Lemma good_getA : forall x v, good (getA P x v). Proof. intros. unfold getA. good_tac. Qed.
Lemma good_setA : forall x nv v, good (setA P x nv v). Proof. intros. unfold setA. good_tac. Qed.
Lemma good_coordA : forall v, good (coordA P v). Proof. intros. unfold coordA. good_tac. Qed.
Hint Resolve good_starts_statement good_starts_declarator good_getA good_setA good_coordA : good.

Lemma good_set_tail : forall fuel m x, good (set_tail P fuel m x).
Proof. induction fuel as [|f IH]; intros; cbn [set_tail]; good_tac. Qed.
Hint Resolve good_set_tail : good.
Lemma good_splice : forall fuel d m, good (splice P fuel d m).
Proof. induction fuel as [|f IH]; intros; cbn [splice]; good_tac. Qed.
Hint Resolve good_splice : good.
Lemma good_type_modify_decl : forall fuel d m, good (type_modify_decl P fuel d m).
Proof. intros. unfold type_modify_decl. good_tac. Qed.
Lemma good_map_typedecl : forall fuel f v, (forall x, good (f x)) -> good (map_typedecl P fuel f v).
Proof. induction fuel as [|fu IH]; intros f v Hf; cbn [map_typedecl]; good_tac; auto. Qed.
Lemma good_find_typedecl : forall fuel v, good (find_typedecl P fuel v).
Proof. induction fuel as [|fu IH]; intros; cbn [find_typedecl]; good_tac. Qed.
Hint Resolve good_type_modify_decl good_find_typedecl : good.
Lemma good_all_names : forall tys, good (all_names P tys).
Proof. unfold all_names. induction tys as [|t r IH]; good_tac. Qed.
Hint Resolve good_all_names : good.
Lemma good_fix_decl_name_type : forall fuel d tn, good (fix_decl_name_type P fuel d tn).
Proof. intros. unfold fix_decl_name_type. good_tac; try (apply good_map_typedecl; intros; good_tac). Qed.
Hint Resolve good_fix_decl_name_type : good.
Lemma good_once_walk : forall fuel g p nd, good (once_walk P fuel g p nd).
Proof. induction fuel as [|f IH]; intros; cbn [once_walk]; good_tac. Qed.
Hint Resolve good_once_walk : good.
Lemma good_fix_atomic_once : forall fuel d, good (fix_atomic_once P fuel d).
Proof. intros. unfold fix_atomic_once. good_tac. Qed.
Hint Resolve good_fix_atomic_once : good.
Lemma good_fix_atomic_loop : forall fuel d, good (fix_atomic_loop P fuel d).
Proof. induction fuel as [|f IH]; intros; cbn [fix_atomic_loop]; good_tac. Qed.
Hint Resolve good_fix_atomic_loop : good.
Lemma good_fix_atomic_specifiers : forall fuel d, good (fix_atomic_specifiers P fuel d).
Proof. intros. unfold fix_atomic_specifiers. good_tac; try (apply good_map_typedecl; intros; good_tac). Qed.
Lemma good_extract_nested : forall fuel c, good (extract_nested P fuel c).
Proof. induction fuel as [|f IH]; intros; cbn [extract_nested]; good_tac. Qed.
Hint Resolve good_fix_atomic_specifiers good_extract_nested : good.
Lemma good_switch_regroup : forall fuel ch items hc, good (switch_regroup P fuel ch items hc).
Proof. intros fuel ch. induction ch as [|c r IH]; intros; cbn [switch_regroup]; good_tac. Qed.
Hint Resolve good_switch_regroup : good.
Lemma good_fix_switch_cases : forall fuel sw, good (fix_switch_cases P fuel sw).
Proof. intros. unfold fix_switch_cases. good_tac. Qed.
Hint Resolve good_fix_switch_cases : good.

Lemma good_last_type_names : forall tys, good (last_type_names P tys). Proof. intros. unfold last_type_names. good_tac. Qed.
Lemma good_first_name : forall ns, good (first_name P ns). Proof. intros. unfold first_name. good_tac. Qed.
Lemma good_name_of_value : forall v, good (name_of_value P v). Proof. intros. unfold name_of_value. good_tac. Qed.
Hint Resolve good_last_type_names good_first_name good_name_of_value : good.
Lemma good_adjust_first : forall spec decls, good (adjust_first P spec decls).
Proof. intros. unfold adjust_first. good_tac; try (apply good_map_typedecl; intros; good_tac). Qed.
Hint Resolve good_adjust_first : good.
Lemma good_build_one : forall spec a b d, good (build_one P spec a b d).
Proof. intros. unfold build_one. good_tac. Qed.
Hint Resolve good_build_one : good.
Lemma good_build_loop : forall ds spec a b, good (build_loop P spec a b ds).
Proof. induction ds as [|d r IH]; intros; cbn [build_loop]; good_tac. Qed.
Hint Resolve good_build_loop : good.
Lemma good_build_declarations : forall spec decls b, good (build_declarations P spec decls b).
Proof. intros. unfold build_declarations. good_tac. Qed.
Hint Resolve good_build_declarations : good.
Lemma good_build_function_definition : forall spec d pd b, good (build_function_definition P spec d pd b).
Proof. intros. unfold build_function_definition. good_tac. Qed.
Hint Resolve good_build_function_definition : good.

Lemma good_tcoord : forall t, good (tcoord P t). Proof. intros. unfold tcoord. good_tac. Qed.
Hint Resolve good_tcoord : good.
Lemma good_p_identifier : good (p_identifier P). Proof. unfold p_identifier. good_tac. Qed.
Lemma good_p_identifier_or_typeid : good (p_identifier_or_typeid P). Proof. unfold p_identifier_or_typeid. good_tac. Qed.
Lemma good_p_constant : good (p_constant P). Proof. unfold p_constant. good_tac. Qed.
Hint Resolve good_p_identifier good_p_identifier_or_typeid good_p_constant : good.
Lemma good_concat_strings : forall fuel v, good (concat_strings P fuel v).
Proof. induction fuel as [|f IH]; intros; cbn [concat_strings]; good_tac. Qed.
Lemma good_concat_wstrings : forall fuel v, good (concat_wstrings P fuel v).
Proof. induction fuel as [|f IH]; intros; cbn [concat_wstrings]; good_tac. Qed.
Hint Resolve good_concat_strings good_concat_wstrings : good.
Lemma good_p_unified_string_literal : forall fuel, good (p_unified_string_literal P fuel). Proof. intros. unfold p_unified_string_literal. good_tac. Qed.
Lemma good_p_unified_wstring_literal : forall fuel, good (p_unified_wstring_literal P fuel). Proof. intros. unfold p_unified_wstring_literal. good_tac. Qed.
Hint Resolve good_p_unified_string_literal good_p_unified_wstring_literal : good.
Lemma good_p_type_qualifier_list : forall fuel, good (p_type_qualifier_list P fuel).
Proof. induction fuel as [|f IH]; intros; cbn [p_type_qualifier_list]; good_tac. Qed.
Hint Resolve good_p_type_qualifier_list : good.
Lemma good_p_pointer_stars : forall fuel, good (p_pointer_stars P fuel).
Proof. induction fuel as [|f IH]; intros; cbn [p_pointer_stars]; good_tac. Qed.
Hint Resolve good_p_pointer_stars : good.
Lemma good_p_pointer : forall fuel, good (p_pointer P fuel). Proof. intros. unfold p_pointer. good_tac. Qed.
Lemma good_skip_quals : forall fuel, good (skip_quals P fuel).
Proof. induction fuel as [|f IH]; intros; cbn [skip_quals]; good_tac. Qed.
Hint Resolve good_p_pointer good_skip_quals : good.
Lemma good_skip_stars : forall fuel, good (skip_stars P fuel).
Proof. induction fuel as [|f IH]; intros; cbn [skip_stars]; good_tac. Qed.
Lemma good_skip_to_rparen : forall fuel d, good (skip_to_rparen P fuel d).
Proof. induction fuel as [|f IH]; intros; cbn [skip_to_rparen]; good_tac. Qed.
Hint Resolve good_skip_stars good_skip_to_rparen : good.
Lemma good_scan_name_info : forall fuel, good (scan_name_info P fuel).
Proof. induction fuel as [|f IH]; intros; cbn [scan_name_info]; good_tac. Qed.
Hint Resolve good_scan_name_info : good.
Lemma good_peek_declarator_name_info : forall fuel, good (peek_declarator_name_info P fuel).
Proof. intros. unfold peek_declarator_name_info. good_tac. Qed.
Lemma good_register_params : forall l, good (register_params P l).
Proof. induction l as [|p r IH]; cbn [register_params]; good_tac. Qed.
Hint Resolve good_peek_declarator_name_info good_register_params : good.

Lemma good_ext : forall A (m m': M A), (forall s, m s = m' s) -> good m' -> good m.
Proof. intros A m m' E H s. rewrite E. apply H. Qed.

Lemma good_all : forall fuel,
  good (p_expression P fuel)
  /\ good (p_comma_exprs P fuel)
  /\ good (p_assignment_expression P fuel)
  /\ good (p_conditional_expression P fuel)
  /\ (forall (min_prec: nat) (lhs: node P), good (p_binary_climb P fuel min_prec lhs))
  /\ (forall (prec: nat) (rhs: node P), good (p_binary_inner P fuel prec rhs))
  /\ good (try_paren_type_name P fuel)
  /\ good (p_cast_expression P fuel)
  /\ good (p_unary_expression P fuel)
  /\ good (p_postfix_expression P fuel)
  /\ (forall (e: node P), good (p_postfix_suffixes P fuel e))
  /\ good (p_primary_expression P fuel)
  /\ good (p_offsetof_member_designator P fuel)
  /\ (forall (n: node P), good (p_offsetof_suffixes P fuel n))
  /\ good (p_argument_expression_list P fuel)
  /\ good (p_type_name P fuel)
  /\ (forall (decl_mode: bool) (st: specst P), good (p_spec_loop P fuel decl_mode st))
  /\ (forall (allow_no_type: bool), good (p_declaration_specifiers P fuel allow_no_type))
  /\ good (p_specifier_qualifier_list P fuel)
  /\ good (p_alignment_specifier P fuel)
  /\ good (p_atomic_specifier P fuel)
  /\ good (p_struct_or_union_specifier P fuel)
  /\ good (p_struct_declaration_list P fuel)
  /\ good (p_struct_declaration P fuel)
  /\ good (p_struct_declarator_list P fuel)
  /\ good (p_struct_declarator P fuel)
  /\ good (p_enum_specifier P fuel)
  /\ good (p_enumerator_list P fuel)
  /\ good (p_enumerators_more P fuel)
  /\ good (p_enumerator P fuel)
  /\ good (p_declarator P fuel)
  /\ (forall (allow_abstract typeid_paren_as_abstract: bool), good (p_any_declarator P fuel allow_abstract typeid_paren_as_abstract))
  /\ (forall (kind_id: bool) (allow_paren: bool), good (p_declarator_kind P fuel kind_id allow_paren))
  /\ (forall (kind_id: bool) (allow_paren: bool), good (p_direct_declarator P fuel kind_id allow_paren))
  /\ (forall (decl: node P), good (p_decl_suffixes P fuel decl))
  /\ (forall (base_type: node P) (co: option (coord P)), good (p_array_decl_common P fuel base_type co))
  /\ (forall (base_decl: node P), good (p_function_decl P fuel base_decl))
  /\ good (p_parameter_type_list P fuel)
  /\ good (p_parameters_more P fuel)
  /\ good (p_parameter_declaration P fuel)
  /\ (forall (spec: dspec P) (decl: option (node P)) (spec_coord: option (coord P)), good (p_build_parameter_declaration P fuel spec decl spec_coord))
  /\ good (p_identifier_list P fuel)
  /\ good (p_identifiers_more P fuel)
  /\ good (p_abstract_declarator_opt P fuel)
  /\ good (p_direct_abstract_declarator P fuel)
  /\ good (p_declaration P fuel)
  /\ (forall (spec: dspec P) (saw_type: bool), good (p_decl_body_with_spec P fuel spec saw_type))
  /\ good (p_declaration_list P fuel)
  /\ (forall (first: option (dinfo P)) (id_only: bool), good (p_init_declarator_list P fuel first id_only))
  /\ (forall (id_only: bool), good (p_init_declarators_more P fuel id_only))
  /\ (forall (id_only: bool), good (p_init_declarator P fuel id_only))
  /\ good (p_initializer P fuel)
  /\ good (p_initializer_list P fuel)
  /\ good (p_initializer_items_more P fuel)
  /\ good (p_initializer_item P fuel)
  /\ good (p_designator_list P fuel)
  /\ good (p_statement P fuel)
  /\ good (p_pragmacomp_or_statement P fuel)
  /\ good (p_block_item_list P fuel)
  /\ good (p_compound_statement P fuel)
  /\ good (p_labeled_statement P fuel)
  /\ good (p_selection_statement P fuel)
  /\ good (p_iteration_statement P fuel)
  /\ good (p_expression_opt P fuel)
  /\ good (p_jump_statement P fuel)
  /\ good (p_expression_statement P fuel)
  /\ good (p_pppragma_directive P fuel)
  /\ good (p_pppragma_directive_list P fuel)
  /\ good (p_static_assert P fuel)
  /\ good (p_external_declaration P fuel)
  /\ good (p_translation_unit P fuel).
Proof.
  (* [simpl] puts the recursive calls back under the names of their productions, where [cbn] leaves each
     of them as the whole mutual [fix]; but it unfolds a production only when an argument
     follows the fuel, hence [good_ext] and the state. *)
  induction fuel as [|f IH]; [|decompose [and] IH; clear IH];
  repeat match goal with |- _ /\ _ => split end; intros;
  (eapply good_ext; [intro; simpl; reflexivity|]); good_tac.
Qed.

Lemma good_p_translation_unit : forall fuel, good (p_translation_unit P fuel).
Proof. intros fuel. apply (good_all fuel). Qed.

End CP.
