From Coq Require Import List NArith Bool Arith.
Import ListNotations.
From PV Require Import Regex Base LexTables NodeModel ParserBase ParserDecl ParserMain Api.

(* the else belongs to the nearest unmatched if (C99 6.8.4.1p3) *)
Example ex_C05_dangling_else :
  outcome_str (s2l "void f(){ if (a) if (b) x; else y; }") = s2l "OK|(FileAST [(FuncDef (Decl 'f' [] [] [] [] (FuncDecl None (TypeDecl 'f' [] None (IdentifierType ['void']))) None None) None (Compound [(If (ID 'a') (If (ID 'b') (ID 'x') (ID 'y')) None)]))])".
Proof. vm_compute. reflexivity. Qed.
(* statements go under the nearest preceding label; consecutive labels stay siblings *)
Example ex_C05_switch_regroup :
  outcome_str (s2l "void f(){ switch(x){ case 1: a; b; case 2: case 3: c; default: d; } }") = s2l "OK|(FileAST [(FuncDef (Decl 'f' [] [] [] [] (FuncDecl None (TypeDecl 'f' [] None (IdentifierType ['void']))) None None) None (Compound [(Switch (ID 'x') (Compound [(Case (Constant 'int' '1') [(ID 'a'),(ID 'b')]),(Case (Constant 'int' '2') []),(Case (Constant 'int' '3') [(ID 'c')]),(Default [(ID 'd')])]))]))])".
Proof. vm_compute. reflexivity. Qed.
(* a declaration init lands in a DeclList *)
Example ex_C05_for_decl :
  outcome_str (s2l "void f(){ for(int i=0;i<3;i++) x; }") = s2l "OK|(FileAST [(FuncDef (Decl 'f' [] [] [] [] (FuncDecl None (TypeDecl 'f' [] None (IdentifierType ['void']))) None None) None (Compound [(For (DeclList [(Decl 'i' [] [] [] [] (TypeDecl 'i' [] None (IdentifierType ['int'])) (Constant 'int' '0') None)]) (BinaryOp '<' (ID 'i') (Constant 'int' '3')) (UnaryOp 'p++' (ID 'i')) (ID 'x'))]))])".
Proof. vm_compute. reflexivity. Qed.
(* each pragma once, verbatim, in place; a pragma-prefixed sub-statement is wrapped in a Compound *)
Example ex_C05_pragma_once :
  outcome_str (s2l "void f(){
#pragma p1
 x;
 if (a)
#pragma p2
 y;
}") = s2l "OK|(FileAST [(FuncDef (Decl 'f' [] [] [] [] (FuncDecl None (TypeDecl 'f' [] None (IdentifierType ['void']))) None None) None (Compound [(Pragma 'p1'),(ID 'x'),(If (ID 'a') (Compound [(Pragma 'p2'),(ID 'y')]) None)]))])".
Proof. vm_compute. reflexivity. Qed.
(* a static assertion as a sub-statement is one node, like any statement (was a Python list before the fix) *)
Example ex_C05_static_assert_stmt :
  outcome_str (s2l "void f(){ if (x) _Static_assert(1,""a""); }") = s2l "OK|(FileAST [(FuncDef (Decl 'f' [] [] [] [] (FuncDecl None (TypeDecl 'f' [] None (IdentifierType ['void']))) None None) None (Compound [(If (ID 'x') (StaticAssert (Constant 'int' '1') (Constant 'string' '""a""')) None),(EmptyStatement)]))])".
Proof. vm_compute. reflexivity. Qed.
