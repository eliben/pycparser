(* C07, generator side of FuncTrip and the two sides together: for every program of FuncTrip.fdef (function definitions `T f ( ) { ... }`
   over the statement language with declarations) the generator MODEL (visit_FileAST, visit_FuncDef, visit_Decl / _generate_decl /
   _generate_type with a FuncDecl modifier, visit_Compound at indentation 0) prints [ptextP rp p]; that text with blanks and newlines
   removed is the concatenation of the spellings of [prog_toks rp p]; and - FuncTrip.parse_of_generated_program - the parser model
   turns these tokens back into the tree the text was printed from ([program_roundtrip]).  The embeddings used by the two sides are
   the same tree ([embC_unit], [embS_unit], [embP_unit]).  [unit_roundtrip]: the same for translation units that mix object
   declarations and function definitions (FuncTrip.edecl). *)
From Coq Require Import String.
From Coq Require Import List NArith ZArith Bool Arith Lia.
Import ListNotations.
From PV Require Import Regex Base AstDefs AstSpec AstImpl GenTables NodeModel Generator ClimbProofs GenParen GenBinop.
From PV Require Import LexTables ParserTables LexerProofs TableProofs RoundTrip RoundTripGen RoundTripX GenExpr TypeName DeclTrip StmtTrip GenStmt FuncTrip.
Open Scope nat_scope.

(* each side defines its embedding of [ex] and [st] into trees; over [unit] they are the same fixpoints *)
Lemma embC_embx : embC unit = embx.
Proof. reflexivity. Qed.
Lemma embS_embs : embS unit = embs.
Proof. reflexivity. Qed.

Lemma embC_unit : forall n e, size e <= n -> embC unit e = embx e.
Proof. intros n e _. rewrite embC_embx. reflexivity. Qed.

Lemma oembC_unit : forall o, oembC unit o = oemb o.
Proof. intros o. unfold oembC. rewrite embC_embx. reflexivity. Qed.

Lemma embS_unit : forall n x, ssize x <= n -> embS unit x = embs x.
Proof. intros n x _. rewrite embS_embs. reflexivity. Qed.

Section GP.
Variable C : Type.
Variable rp : bool.
Notation node := (value C).

Definition fdC (vs: list str) (x: str) : node := VNode C_FuncDecl [VNone; tdx C vs x] None.
Definition embF (fd: fdef) : node :=
  let '(ty, f, items) := fd in
  VNode C_FuncDef [VNode C_Decl [VStr f; VList []; VList []; VList []; VList []; fdC (map snd ty) f; VNone; VNone] None; VNone;
                   embS C (SBlock items)] None.
Definition embP (p: list fdef) : node := VNode C_FileAST [VList (map embF p)] None.

Definition ftext (fd: fdef) : str :=
  let '(ty, f, items) := fd in
  join_str (s " ") (map snd ty) ++ s " " ++ f ++ s "()" ++ [10%N] ++ vis rp (SBlock items) 0%Z ++ [10%N].
Definition ptextP (p: list fdef) : str := concat_str (map ftext p).

Definition fcost (fd: fdef) : nat := let '(_, _, items) := fd in cost (SBlock items) + 8.

Lemma gen_fdx : forall f vs x st, x <> [] -> generate_type C rp (S (S (S f))) (fdC vs x) [] true st = GOk (join_str (s " ") vs ++ s " " ++ x ++ s "()", st).
Proof.
  intros f vs x st Hx. destruct x as [|x0 xr]; [congruence|].
  change (generate_type C rp (S (S (S f))) (fdC vs (x0 :: xr)) [] true st) with
    (gbind (join_strs C (s " ") (VList (map (fun v => VStr v) vs))) (fun ts0 =>
       gret (ts0 ++ s " " ++ ((x0 :: xr) ++ s "(" ++ [] ++ s ")"))) st).
  rewrite (gbind_ok (join_strs_strs C (s " ") vs st)). reflexivity.
Qed.

Lemma visit_funcdef_eq : forall f d b co, visit C rp (S f) (VNode C_FuncDef [d; VNone; b] co) =
  gbind (visit C rp f d) (fun decl => gbind (set_indent 0) (fun _ => gbind (visit C rp f b) (fun body => gret (decl ++ [10%N] ++ body ++ [10%N])))).
Proof. reflexivity. Qed.

Lemma visit_decl_plain : forall f x T st, visit C rp (S (S (S f))) (VNode C_Decl [VStr x; VList []; VList []; VList []; VList []; T; VNone; VNone] None) st =
  gbind (generate_type C rp f T [] true) (fun t => gret t) st.
Proof.
  intros f x T st. exact (visit_decl_init C rp f x T VNone st).
Qed.

Lemma visit_fdef : forall ty f items, f <> [] -> swfl true items -> forall fuel lv, cost (SBlock items) + 8 <= fuel ->
  visit C rp fuel (embF (ty, f, items)) lv = GOk (ftext (ty, f, items), 0%Z).
Proof.
  intros ty f items Hf Hw fuel lv Hfu. do 7 (destruct fuel as [|fuel]; [lia|]). cbn [embF ftext].
  assert (HB: visit C rp (S (S (S (S (S (S fuel)))))) (embS C (SBlock items)) 0%Z = GOk (vis rp (SBlock items) 0%Z, 0%Z)).
  { apply (vis_prints_s C rp true (SBlock items)); [exact Hw|lia]. }
  rewrite visit_funcdef_eq, (gbind_ok (eq_trans (visit_decl_plain _ _ _ lv) (gbind_ok (gen_fdx fuel (map snd ty) f lv Hf)))).
  rewrite (gbind_ok (eq_refl : set_indent 0 lv = GOk (tt, 0%Z))), (gbind_ok HB). unfold gret. rewrite <- !app_assoc. reflexivity.
Qed.

Definition fgen_ok (fd: fdef) : Prop := let '(ty, f, items) := fd in f <> [] /\ swfl true items.

(* what visit_FileAST prints for one external declaration *)
Definition ext_item (f: nat) (e: node) : GM str :=
  gbind (visit C rp f e) (fun x => if is_c C C_FuncDef e then gret x else if is_c C C_Pragma e then gret (x ++ [10%N]) else gret (x ++ s ";" ++ [10%N])).
Lemma visit_fileast_eq : forall f es co st,
  visit C rp (S f) (VNode C_FileAST [VList es] co) st = gbind (mapM (ext_item f) es) (fun xs => gret (concat_str xs)) st.
Proof. reflexivity. Qed.
Lemma ext_fdef : forall fd, fgen_ok fd -> forall fuel lv, fcost fd <= fuel -> ext_item fuel (embF fd) lv = GOk (ftext fd, 0%Z).
Proof. intros [[ty f] items] [Hf Hw] fuel lv Hfu. unfold ext_item. rewrite (gbind_ok (visit_fdef ty f items Hf Hw fuel lv Hfu)). reflexivity. Qed.

(* visit_FileAST over external declarations each of which prints its text and leaves the indentation level at 0 *)
Lemma visit_exts : forall X (emb: X -> node) (text: X -> str) l fuel lv,
  (forall x, In x l -> forall L, L = lv \/ L = 0%Z -> ext_item fuel (emb x) L = GOk (text x, 0%Z)) -> (l <> [] \/ lv = 0%Z) ->
  visit C rp (S fuel) (VNode C_FileAST [VList (map emb l)] None) lv = GOk (concat_str (map text l), 0%Z).
Proof.
  intros X emb text l fuel lv HI Hlv.
  assert (HM: mapM (ext_item fuel) (map emb l) lv = GOk (map text l, 0%Z)).
  { destruct l as [|x q]; [destruct Hlv as [H| ->]; [congruence|reflexivity]|]. cbn [map mapM].
    rewrite (gbind_ok (HI x (or_introl eq_refl) lv (or_introl eq_refl))),
            (gbind_ok (mapM_const_state _ _ text q 0%Z (fun a Ha => HI a (or_intror Ha) 0%Z (or_intror eq_refl)))). reflexivity. }
  rewrite visit_fileast_eq, (gbind_ok HM). reflexivity.
Qed.

Lemma visit_file : forall p, Forall fgen_ok p -> forall fuel lv, list_sum (map fcost p) + 2 <= fuel -> (p <> [] \/ lv = 0%Z) ->
  visit C rp fuel (embP p) lv = GOk (ptextP p, 0%Z).
Proof.
  intros p Hp fuel lv Hfu Hlv. destruct fuel as [|fuel]; [lia|]. apply visit_exts; [|exact Hlv].
  intros fd Hfd L _. pose proof (in_list_sum _ fcost p fd Hfd). apply ext_fdef; [exact (proj1 (Forall_forall _ _) Hp fd Hfd)|lia].
Qed.
End GP.

Lemma ftext_tokens : forall rp ty f items, despace2 f = f -> Forall (fun kv : kind * str => despace2 (snd kv) = snd kv) ty ->
  sexprs (eok rp) (SBlock items) ->
  despace2 (ftext rp (ty, f, items)) = spell (fn_toks (fd_items rp (ty, f, items))).
Proof.
  intros rp ty f items Hf Hty Hit. cbn [ftext fd_items fn_toks]. unfold ftoks. gtext. rewrite (despace2_join ty Hty), Hf.
  pose proof (vis_spelled rp (SBlock items) Hit 0%Z) as HV. unfold vt in HV. cbn [isexpr stoks] in HV.
  unfold kw in HV. rewrite spell_cons, spell_app in HV. rewrite HV, map_map, <- !app_assoc. reflexivity.
Qed.

Definition ftok_ok (rp: bool) (fd: fdef) : Prop :=
  let '(ty, f, items) := fd in despace2 f = f /\ Forall (fun kv : kind * str => despace2 (snd kv) = snd kv) ty /\ sexprs (eok rp) (SBlock items).

Theorem ptext_tokens : forall rp p, Forall (ftok_ok rp) p -> despace2 (ptextP rp p) = spell (prog_toks rp p).
Proof.
  intros rp p H. apply concat_text. intros [[ty f] items] Hfd. destruct (proj1 (Forall_forall _ _) H _ Hfd) as (Hf & Hty & Hit).
  exact (ftext_tokens rp ty f items Hf Hty Hit).
Qed.

Lemma embF_unit : forall rp fd, embF unit fd = fn_emb (fd_items rp fd).
Proof.
  intros rp [[ty f] items]. cbn [embF fd_items fn_emb]. unfold fembed, fdC, tdx. rewrite embS_embs.
  cbn [embs]. destruct items as [|y0 r0]; [reflexivity|]. cbn [map fst snd]. rewrite !map_map. cbn [fst snd]. reflexivity.
Qed.
Lemma embP_unit : forall rp p, embP unit p = prog_emb rp p.
Proof. intros rp p. unfold embP, prog_emb. f_equal. f_equal. f_equal. apply map_ext. intros fd. apply embF_unit. Qed.

(* parse . generate = id for whole programs, on the two models, token level.  Third part: whenever the lexer delivers tokens with
   the kinds and spellings of [prog_toks rp p] and then the end of the input, the parser model's parse_tokens returns the tree the
   text was printed from. *)
Theorem program_roundtrip : forall (P: Type) rp (p: list fdef), p <> [] -> Forall fwf p -> Forall fgen_ok p -> Forall (ftok_ok rp) p ->
  (forall fuel, list_sum (map fcost p) + 2 <= fuel -> visit unit rp fuel (prog_emb rp p) 0%Z = GOk (ptextP rp p, 0%Z)) /\
  despace2 (ptextP rp p) = spell (prog_toks rp p) /\
  (forall items le eof file, RoundTrip.Spell P le (prog_toks rp p) -> StreamLib.UpR P [[]] items le -> length items = length le ->
   exists f0 N s', (forall fu, f0 <= fu -> ParserMain.parse_tokens P fu (ParserMain.init_pstate P items eof file) = ParserBase.Ok (N, s')) /\
     RoundTrip.strip N = prog_emb rp p).
Proof.
  intros P rp p Hne Hw Hg Ht. split; [|split].
  - intros fuel Hf. rewrite <- (embP_unit rp p). apply (visit_file unit rp p Hg fuel 0%Z Hf). left. exact Hne.
  - exact (ptext_tokens rp p Ht).
  - intros items le eof file HS HU Hl. destruct (parse_of_generated_program P rp p Hw items le eof file HS HU Hl) as [f0 [N [s' [H [HN _]]]]].
    exists f0, N, s'. split; [exact H|exact HN].
Qed.

(* the example program of FuncTrip meets the hypotheses, and the generator model prints this text for it *)
Example program_roundtrip_example :
  ex_prog <> [] /\ Forall fwf ex_prog /\ Forall fgen_ok ex_prog /\ Forall (ftok_ok false) ex_prog /\
  visit unit false 200 (prog_emb false ex_prog) 0%Z = GOk (s2l "int main()
{
  int x = 1;
  unsigned long y;
  y = x + 2;
  {
    char c = (x, y);
  }
  return y;
}

void g()
{
}

", 0%Z).
Proof.
  pose proof (proj1 program_example) as Hw. inversion Hw as [|x1 y1 Hw1 Hw']; subst. inversion Hw' as [|x2 y2 Hw2 _]; subst.
  split; [discriminate|]. split; [exact (proj1 program_example)|]. split; [|split; [|vm_compute; reflexivity]].
  - constructor; [split; [discriminate|exact (proj2 (proj2 Hw1))]|constructor; [split; [discriminate|exact (proj2 (proj2 Hw2))]|constructor]].
  - unfold ex_prog. repeat (first [ split | reflexivity | discriminate | constructor ]).
Qed.

Section GU.
Variable C : Type.
Variable rp : bool.
Definition embE (d: edecl) : value C :=
  match d with
  | EFun ty f items => embF C (ty, f, items)
  | EObj ty x i => embS C (SDecl ty x i)
  end.
Definition embU (u: list edecl) : value C := VNode C_FileAST [VList (map embE u)] None.
Definition etext (d: edecl) : str :=
  match d with
  | EFun ty f items => ftext rp (ty, f, items)
  | EObj ty x i => vis rp (SDecl ty x i) 0%Z ++ s ";" ++ [10%N]
  end.
Definition utext (u: list edecl) : str := concat_str (map etext u).
Definition ecost (d: edecl) : nat := match d with EFun ty f items => fcost (ty, f, items) | EObj _ _ i => 3 * osize i + 8 end.
Definition egen_ok (d: edecl) : Prop :=
  match d with EFun ty f items => fgen_ok (ty, f, items) | EObj ty x i => x <> [] /\ owf i end.

Lemma ext_decl : forall ty x i, x <> [] -> owf i -> forall fuel, 3 * osize i + 8 <= fuel ->
  ext_item C rp fuel (embS C (SDecl ty x i)) 0%Z = GOk (vis rp (SDecl ty x i) 0%Z ++ s ";" ++ [10%N], 0%Z).
Proof. intros ty x i Hx Hi fuel Hfu. unfold ext_item. rewrite (gbind_ok (visit_declS C rp ty x i Hx Hi fuel 0%Z Hfu)). reflexivity. Qed.

Lemma visit_unit : forall u, Forall egen_ok u -> forall fuel lv, list_sum (map ecost u) + 2 <= fuel -> lv = 0%Z ->
  visit C rp fuel (embU u) lv = GOk (utext u, 0%Z).
Proof.
  intros u Hu fuel lv Hfu ->. destruct fuel as [|fuel]; [lia|]. apply (visit_exts C rp); [|right; reflexivity].
  intros d Hd L HL. assert (L = 0%Z) as -> by tauto. pose proof (in_list_sum _ ecost u d Hd) as Hc. pose proof (proj1 (Forall_forall _ _) Hu d Hd) as Hg.
  destruct d as [ty f items|ty x i]; [apply ext_fdef; [exact Hg|cbn [ecost] in Hc; lia]|apply ext_decl; [exact (proj1 Hg)|exact (proj2 Hg)|cbn [ecost] in Hc; lia]].
Qed.
End GU.


Definition etok_ok (rp: bool) (d: edecl) : Prop :=
  match d with
  | EFun ty f items => ftok_ok rp (ty, f, items)
  | EObj ty x i => sexprs (eok rp) (SDecl ty x i)
  end.

Lemma etext_tokens : forall rp d, etok_ok rp d -> despace2 (etext rp d) = spell (etoks rp d).
Proof.
  intros rp [ty f items|ty x i] H; cbn [etok_ok etext etoks] in *.
  - destruct H as (Hf & Hty & Hit). exact (ftext_tokens rp ty f items Hf Hty Hit).
  - etransitivity; [|exact (vis_spelled rp (SDecl ty x i) H 0%Z)]. unfold vt. cbn [isexpr]. rewrite app_assoc, despace2_app. apply app_nil_r.
Qed.

Theorem utext_tokens : forall rp u, Forall (etok_ok rp) u -> despace2 (utext rp u) = spell (unit_toks rp u).
Proof. intros rp u H. apply concat_text. intros d Hd. exact (etext_tokens rp d (proj1 (Forall_forall _ _) H d Hd)). Qed.


Lemma embE_unit : forall rp d, embE unit d = eemb rp d.
Proof.
  intros rp [ty f items|ty x i]; cbn [embE eemb].
  - exact (embF_unit rp (ty, f, items)).
  - rewrite embS_embs. reflexivity.
Qed.
Lemma embU_unit : forall rp u, embU unit u = unit_emb rp u.
Proof. intros rp u. unfold embU, unit_emb. f_equal. f_equal. f_equal. apply map_ext. intros d. apply embE_unit. Qed.

(* parse . generate = id, token level, for translation units of object declarations and function definitions, on the two models *)
Theorem unit_roundtrip : forall (P: Type) rp (u: list edecl), Forall ewf u -> Forall egen_ok u -> Forall (etok_ok rp) u ->
  (forall fuel, list_sum (map ecost u) + 2 <= fuel -> visit unit rp fuel (unit_emb rp u) 0%Z = GOk (utext rp u, 0%Z)) /\
  despace2 (utext rp u) = spell (unit_toks rp u) /\
  (forall items le eof file, RoundTrip.Spell P le (unit_toks rp u) -> StreamLib.UpR P [[]] items le -> length items = length le ->
   exists f0 N s', (forall fu, f0 <= fu -> ParserMain.parse_tokens P fu (ParserMain.init_pstate P items eof file) = ParserBase.Ok (N, s')) /\
     RoundTrip.strip N = unit_emb rp u).
Proof.
  intros P rp u Hw Hg Ht. split; [|split].
  - intros fuel Hf. rewrite <- (embU_unit rp u). exact (visit_unit unit rp u Hg fuel 0%Z Hf eq_refl).
  - exact (utext_tokens rp u Ht).
  - intros items le eof file HS HU Hl. destruct (parse_of_generated_unit P rp u Hw items le eof file HS HU Hl) as [f0 [N [s' [H [HN _]]]]].
    exists f0, N, s'. split; [exact H|exact HN].
Qed.

Example unit_roundtrip_example :
  visit unit false 200 (unit_emb false ex_unit) 0%Z = GOk (s2l "int counter = 0;
unsigned long limit;
int next()
{
  counter = counter + 1;
  return counter;
}

char flag = (counter, 1);
void g()
{
}

", 0%Z).
Proof. vm_compute. reflexivity. Qed.
