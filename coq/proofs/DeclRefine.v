(* C03 on the whole-parser model: the declarator productions (pointer prefix, direct declarator,
   parenthesised declarator, array / function suffixes) build, for every token stream, the type
   chain that C's inside-out rule (C99 6.7.5.1-3) assigns to the declarator that was read. *)
From Coq Require Import List NArith Bool Arith Lia.
Import ListNotations.
From PV Require Import Regex Base LexTables ParserTables AstDefs AstSpec AstImpl PyRepr NodeModel ParserBase ParserDecl ParserMain PostLib DeclProofs.
Open Scope nat_scope.

Section DR.
Variable P : Type.
Notation M := (M P).
Notation pstate := (pstate P).
Notation node := (node P).
Notation coord := (coord P).
Notation link := (link P).
Notation build := (build P).
Notation wrap := (wrap P).
Notation typedecl := (typedecl P).

(* _type_modify_decl: whenever it returns, it returns the splice (no bound on the chains). *)
Theorem modify_ok : forall fuel ld fs co lm (s: pstate) r s', lm <> [] ->
  type_modify_decl P fuel (build ld (typedecl fs co)) (build lm VNone) s = Ok (r, s') ->
  r = build (ld ++ lm) (typedecl fs co) /\ s' = s.
Proof.
  intros fuel ld fs co lm s r s' Hm H. rewrite modify_spec in H by exact Hm.
  destruct (length ld + length lm <=? fuel); [injection H as <- <-; split; reflexivity|discriminate].
Qed.

Definition mkptr (st: list str * option coord) : link := LPtr P (vstrs P (fst st)) (snd st).

Lemma pointer_chain : forall stars base,
  fold_left (fun (ptr: node) (st: list str * option coord) => mkN P C_PtrDecl [vstrs P (fst st); ptr] (snd st)) stars base
  = build (rev (map mkptr stars)) base.
Proof.
  induction stars as [|x r IH]; intros base; [reflexivity|].
  cbn [fold_left map rev]. rewrite IH. unfold DeclProofs.build. rewrite fold_right_app. reflexivity.
Qed.

(* `* q1 * q2 ... D`: the LAST star is the outermost pointer node (nearest the name) *)
Lemma p_pointer_ok : forall f (s s': pstate) p, p_pointer P f s = Ok (Some p, s') ->
  exists stars, stars <> [] /\ p_pointer_stars P f s = Ok (stars, s') /\ p = build (rev (map mkptr stars)) VNone.
Proof.
  intros f s s' p H. unfold p_pointer in H. apply bind_Ok in H as (stars & s1 & E & H).
  destruct stars as [|x r]; [discriminate|]. apply ret_Ok in H as [[= ->] ->].
  exists (x :: r). split; [discriminate|]. split; [exact E|]. apply (pointer_chain (x :: r) VNone).
Qed.

Lemma arr_shape : forall f bt co,
  post P (fun r => exists dim dq c, r = wrap (LArr P dim dq c) bt) (p_array_decl_common P f bt co).
Proof.
  intros [|f] bt co; [apply (post_oof P)|].
  simpl. post_tac P; apply (post_ret P); eexists _, _, _; reflexivity.
Qed.

Lemma fun_shape : forall f base,
  post P (fun r => exists args bc, r = wrap (LFun P args bc) VNone /\ get_coord P base = Some bc) (p_function_decl P f base).
Proof.
  intros [|f] base; [apply (post_oof P)|].
  simpl. post_tac P. apply (post_ret P). eexists _, _. split; [reflexivity|eapply came_coordA; eassumption].
Qed.

Definition post {A} (Q: A -> Prop) (m: M A) : Prop := forall s a s', m s = Ok (a, s') -> Q a.
Lemma post_none : forall A (Q: A -> Prop) (m: M A), (forall s, match m s with Ok _ => False | _ => True end) -> post Q m.
Proof. intros A Q m H s a s' E. specialize (H s). rewrite E in H. destruct H. Qed.

(* The declarator that was read (C99 6.7.5 syntax) and its meaning. *)
Inductive dtor :=
| DName (fs: list node) (co: option coord)     (* the identifier *)
| DParen (d: dtor)                              (* ( declarator ) *)
| DSuf (d: dtor) (l: link)                      (* direct-declarator [ ... ]   or   direct-declarator ( ... ) *)
| DPtr (lp: list link) (d: dtor).               (* pointer direct-declarator; lp = the pointer chain, outermost first *)

(* C99 6.7.5.1-3: the derivations applied to the base type, read from the identifier outwards *)
Fixpoint derivs (D: dtor) : list link :=
  match D with
  | DName _ _ => []
  | DParen d => derivs d
  | DSuf d l => derivs d ++ [l]
  | DPtr lp d => derivs d ++ lp
  end.
Fixpoint leaf (D: dtor) : node :=
  match D with
  | DName fs co => typedecl fs co
  | DParen d | DSuf d _ | DPtr _ d => leaf d
  end.
Definition node_of (D: dtor) : node := build (derivs D) (leaf D).

Lemma leaf_is_typedecl : forall D, exists fs co, leaf D = typedecl fs co.
Proof. induction D as [fs co|d IH|d IH l|lp d IH]; cbn [leaf]; eauto. Qed.

(* what the three productions read, step by step *)
Inductive RunS : pstate -> dtor -> dtor -> pstate -> Prop :=      (* p_decl_suffixes *)
| RS_done : forall s k s' D, peek_kind P s = Ok (k, s') -> okind_is k K_LBRACKET = false -> okind_is k K_LPAREN = false -> RunS s D D s'
| RS_arr : forall s k s1 D f dc dim dq c s2 D' s',
    peek_kind P s = Ok (k, s1) -> okind_is k K_LBRACKET = true -> get_coord P (node_of D) = Some dc ->
    p_array_decl_common P f VNone dc s1 = Ok (wrap (LArr P dim dq c) VNone, s2) ->
    RunS s2 (DSuf D (LArr P dim dq c)) D' s' -> RunS s D D' s'
| RS_fun : forall s k s1 D f args bc s2 D' s',
    peek_kind P s = Ok (k, s1) -> okind_is k K_LBRACKET = false -> okind_is k K_LPAREN = true ->
    p_function_decl P f (node_of D) s1 = Ok (wrap (LFun P args bc) VNone, s2) -> get_coord P (node_of D) = Some bc ->
    RunS s2 (DSuf D (LFun P args bc)) D' s' -> RunS s D D' s'.

Inductive RunK : bool -> bool -> pstate -> dtor -> pstate -> Prop :=   (* p_declarator_kind: pointer_opt direct-declarator *)
| RK_plain : forall kid ap s k s1 D s',
    peek_kind P s = Ok (k, s1) -> okind_is k K_TIMES = false -> RunD kid ap s1 D s' -> RunK kid ap s D s'
| RK_ptr : forall kid ap s k s1 f stars s2 D s',
    peek_kind P s = Ok (k, s1) -> okind_is k K_TIMES = true -> p_pointer_stars P f s1 = Ok (stars, s2) -> stars <> [] ->
    RunD kid ap s2 D s' -> RunK kid ap s (DPtr (rev (map mkptr stars)) D) s'
| RK_nostar : forall kid ap s k s1 f s2 D s',      (* a star was seen but no pointer read: cannot happen, kept so that the relation is total *)
    peek_kind P s = Ok (k, s1) -> okind_is k K_TIMES = true -> p_pointer P f s1 = Ok (None, s2) ->
    RunD kid ap s2 D s' -> RunK kid ap s D s'
with RunD : bool -> bool -> pstate -> dtor -> pstate -> Prop :=         (* p_direct_declarator *)
| RD_paren : forall kid s x s1 D1 s2 y s3 D s',
    accept P K_LPAREN s = Ok (Some x, s1) -> RunK kid true s1 D1 s2 -> expect P K_RPAREN s2 = Ok (y, s3) ->
    RunS s3 (DParen D1) D s' -> RunD kid true s D s'
| RD_name : forall (kid ap: bool) s s1 nt s2 c s3 D s',
    (if ap return Prop then accept P K_LPAREN s = Ok (None, s1) else s1 = s) ->
    expect P (if kid then K_ID else K_TYPEID) s1 = Ok (nt, s2) -> tcoord P nt s2 = Ok (c, s3) ->
    RunS s3 (DName [VStr (tv nt); VNone; VNone; VNone] c) D s' -> RunD kid ap s D s'.

Lemma kind_eq : forall f kid ap,
  p_declarator_kind P (S f) kid ap =
  bind P (peek_kind P) (fun k =>
  bind P (if okind_is k K_TIMES then p_pointer P f else ret P None) (fun ptr =>
  bind P (p_direct_declarator P f kid ap) (fun direct =>
  match ptr with
  | Some p => type_modify_decl P (WF) direct p
  | None => ret P direct
  end))).
Proof. reflexivity. Qed.

Lemma direct_eq : forall f kid ap,
  p_direct_declarator P (S f) kid ap =
  bind P (if ap then accept P K_LPAREN else ret P None) (fun lp =>
  bind P (match lp with
          | Some _ => bind P (p_declarator_kind P f kid true) (fun d => bind P (expect P K_RPAREN) (fun _ => ret P d))
          | None => bind P (expect P (if kid then K_ID else K_TYPEID)) (fun nt =>
                    bind P (tcoord P nt) (fun c => ret P (mkTypeDecl P (VStr (tv nt)) VNone VNone VNone c)))
          end) (fun decl => p_decl_suffixes P f decl)).
Proof. reflexivity. Qed.

Lemma suffix_eq : forall f decl,
  p_decl_suffixes P (S f) decl =
  bind P (peek_kind P) (fun k =>
  if okind_is k K_LBRACKET then
    bind P (coordA P decl) (fun dc =>
    bind P (p_array_decl_common P f VNone dc) (fun arr =>
    bind P (type_modify_decl P (WF) decl arr) (fun d' => p_decl_suffixes P f d')))
  else if okind_is k K_LPAREN then
    bind P (p_function_decl P f decl) (fun fn =>
    bind P (type_modify_decl P (WF) decl fn) (fun d' => p_decl_suffixes P f d'))
  else ret P decl).
Proof. reflexivity. Qed.

Lemma modify_node_of : forall D lm (s: pstate) r s', lm <> [] ->
  type_modify_decl P (WF) (node_of D) (build lm VNone) s = Ok (r, s') ->
  r = build (derivs D ++ lm) (leaf D) /\ s' = s.
Proof.
  intros D lm s r s' Hm H. unfold node_of in H. destruct (leaf_is_typedecl D) as [fs [co Hl]]. rewrite Hl in *.
  eapply modify_ok; eauto.
Qed.

Theorem suffixes_refine : forall f D s r s',
  p_decl_suffixes P f (node_of D) s = Ok (r, s') -> exists D', RunS s D D' s' /\ r = node_of D'.
Proof.
  induction f as [|f IH]; intros D s r s' H; [discriminate|].
  rewrite suffix_eq in H. apply bind_Ok in H as (k & s1 & Ek & H).
  destruct (okind_is k K_LBRACKET) eqn:Eb; [|destruct (okind_is k K_LPAREN) eqn:Ep].
  - apply bind_Ok in H as (dc & s0 & Ec & H). apply coordA_Ok in Ec as [Ec ->].
    apply bind_Ok in H as (arr & s2 & Ea & H). destruct (arr_shape f VNone dc _ _ _ Ea) as (dim & dq & c & ->).
    apply bind_Ok in H as (d' & s3 & Em & H). apply (modify_node_of D [LArr P dim dq c]) in Em as [-> ->]; [|discriminate].
    apply (IH (DSuf D (LArr P dim dq c))) in H as [D' [HR ->]]. exists D'. split; [|reflexivity]. eapply RS_arr; eauto.
  - apply bind_Ok in H as (fn & s2 & Ef & H). destruct (fun_shape f (node_of D) _ _ _ Ef) as (args & bc & -> & Hbc).
    apply bind_Ok in H as (d' & s3 & Em & H). apply (modify_node_of D [LFun P args bc]) in Em as [-> ->]; [|discriminate].
    apply (IH (DSuf D (LFun P args bc))) in H as [D' [HR ->]]. exists D'. split; [|reflexivity]. eapply RS_fun; eauto.
  - apply ret_Ok in H as [-> ->]. exists D. split; [|reflexivity]. eapply RS_done; eauto.
Qed.

Definition kind_stmt (f: nat) : Prop := forall kid ap s r s',
  p_declarator_kind P f kid ap s = Ok (r, s') -> exists D, RunK kid ap s D s' /\ r = node_of D.
Definition direct_stmt (f: nat) : Prop := forall kid ap s r s',
  p_direct_declarator P f kid ap s = Ok (r, s') -> exists D, RunD kid ap s D s' /\ r = node_of D.

Lemma declarator_refine_both : forall f, kind_stmt f /\ direct_stmt f.
Proof.
  induction f as [|f [IHk IHd]]; split.
  - intros kid ap s r s' H. discriminate.
  - intros kid ap s r s' H. discriminate.
  - intros kid ap s r s' H. rewrite kind_eq in H. apply bind_Ok in H as (k & s1 & Ek & H).
    apply bind_Ok in H as (ptr & s2 & Ep & H). apply bind_Ok in H as (direct & s3 & Ed & H).
    apply IHd in Ed as [D [HR ->]]. destruct (okind_is k K_TIMES) eqn:Et; [destruct ptr as [p|]|].
    + destruct (p_pointer_ok _ _ _ _ Ep) as (stars & Hne & Hst & ->). apply modify_node_of in H as [-> ->].
      * exists (DPtr (rev (map mkptr stars)) D). split; [|reflexivity]. eapply RK_ptr; eauto.
      * intros Hnil. apply (f_equal (@length _)) in Hnil. rewrite rev_length, map_length in Hnil. destruct stars; [congruence|discriminate].
    + apply ret_Ok in H as [-> ->]. exists D. split; [|reflexivity]. eapply RK_nostar; eauto.
    + apply ret_Ok in Ep as [-> ->]. apply ret_Ok in H as [-> ->]. exists D. split; [|reflexivity]. eapply RK_plain; eauto.
  - intros kid ap s r s' H. rewrite direct_eq in H. apply bind_Ok in H as (lp & s1 & Ea & H).
    apply bind_Ok in H as (decl & s4 & Hd & H).
    destruct lp as [x|].
    + destruct ap; [|apply ret_Ok in Ea as [[=] _]]. apply bind_Ok in Hd as (d & s2 & Ek & Hd). apply IHk in Ek as [D1 [HR1 ->]].
      apply bind_Ok in Hd as (y & s3 & Er & Hd). apply ret_Ok in Hd as [-> ->].
      apply (suffixes_refine f (DParen D1)) in H as [D' [HR ->]]. exists D'. split; [|reflexivity]. eapply RD_paren; eauto.
    + apply bind_Ok in Hd as (nt & s2 & Ee & Hd). apply bind_Ok in Hd as (c & s3 & Ec & Hd). apply ret_Ok in Hd as [-> ->].
      apply (suffixes_refine f (DName [VStr (tv nt); VNone; VNone; VNone] c)) in H as [D' [HR ->]]. exists D'. split; [|reflexivity].
      eapply RD_name; eauto. destruct ap; [exact Ea|]. apply ret_Ok in Ea as [_ ->]. reflexivity.
Qed.

Theorem declarator_refines : forall f kid ap s r s',
  p_declarator_kind P f kid ap s = Ok (r, s') ->
  exists D, RunK kid ap s D s' /\ r = build (derivs D) (leaf D).
Proof. intros f. apply (declarator_refine_both f). Qed.
End DR.
