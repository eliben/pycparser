(* C05 on the whole-parser model: loop bodies, labels and case/default prefixes.
   For every token stream, state and fuel: the body slot of a While / DoWhile / For node holds ONE node, and that node
   was returned by the statement production ([stmt_here]: by some run of it, from which state is not said); the slot
   of a Label / Case / Default holds one such node too, or an EmptyStatement if no statement can start after the colon. *)
From Coq Require Import List NArith Bool Arith Lia.
Import ListNotations.
From PV Require Import Regex Base LexTables ParserTables AstDefs AstSpec AstImpl PyRepr NodeModel ParserBase ParserDecl ParserMain PostLib.
Open Scope nat_scope.

Section SS.
Variable P : Type.
Notation M := (M P).
Notation node := (node P).

Definition came_from {A} (m: M A) (a: A) : Prop := exists s s', m s = Ok (a, s').
Definition post {A} (Q: A -> Prop) (m: M A) : Prop := forall s a s', m s = Ok (a, s') -> Q a.

Definition stmt_here (f: nat) (st: node) : Prop := came_from (p_pragmacomp_or_statement P f) st.

Theorem loop_body_is_one_statement : forall f,
  post (fun r => exists st c, stmt_here f st /\
          ((exists cond, r = mkN P C_While [cond; st] c) \/ (exists cond, r = mkN P C_DoWhile [cond; st] c) \/
           (exists init cond nx, r = mkN P C_For [init; cond; nx; st] c)))
       (p_iteration_statement P (S f)).
Proof.
  intros f. eapply (post_ext P); [intro; simpl; reflexivity|]. post_tac P;
    apply (post_ret P); eexists _, _; (split; [eassumption|]);
    first [left; eexists; reflexivity | right; left; eexists; reflexivity | right; right; eexists _, _, _; reflexivity].
Qed.

Definition label_body (f: nat) (st: node) : Prop :=
  stmt_here f st \/ exists c, st = mkN P C_EmptyStatement [] c.

Definition lbody (f: nat) (t: tok P) : M node :=
  bind P (starts_statement P) (fun ss =>
    if ss then p_pragmacomp_or_statement P f
    else bind P (tcoord P t) (fun c => ret P (mkN P C_EmptyStatement [] c))).

Lemma labeled_eq : forall f,
  p_labeled_statement P (S f) =
  bind P (peek_kind P) (fun k =>
    if okind_is k K_ID then
      bind P (advance P) (fun nt => bind P (expect P K_COLON) (fun _ => bind P (lbody f nt) (fun stmt =>
      bind P (tcoord P nt) (fun c => ret P (mkN P C_Label [VStr (tv nt); stmt] c)))))
    else if okind_is k K_CASE then
      bind P (advance P) (fun ct => bind P (p_conditional_expression P f) (fun e => bind P (expect P K_COLON) (fun _ =>
      bind P (lbody f ct) (fun stmt => bind P (tcoord P ct) (fun c => ret P (mkN P C_Case [e; VList [stmt]] c))))))
    else if okind_is k K_DEFAULT then
      bind P (advance P) (fun dt => bind P (expect P K_COLON) (fun _ => bind P (lbody f dt) (fun stmt =>
      bind P (tcoord P dt) (fun c => ret P (mkN P C_Default [VList [stmt]] c)))))
    else bind P (cur_file P) (fun fl => fail P (L_file P fl) (s2l "Invalid labeled statement"))).
Proof. reflexivity. Qed.

Lemma body_post : forall f t, PostLib.post P (label_body f) (lbody f t).
Proof.
  intros f t. unfold lbody. apply (post_bind_from P). intros ss _. destruct ss.
  - apply (post_came P). intros a Ha. left. exact Ha.
  - apply (post_bind_from P). intros c _. apply (post_ret P). right. eexists. reflexivity.
Qed.

Theorem label_attaches_to_next_statement : forall f,
  post (fun r => exists st c, label_body f st /\
          ((exists name, r = mkN P C_Label [VStr name; st] c) \/ (exists e, r = mkN P C_Case [e; VList [st]] c) \/
           r = mkN P C_Default [VList [st]] c))
       (p_labeled_statement P (S f)).
Proof.
  intros f. eapply (post_ext P); [intro; rewrite labeled_eq; reflexivity|]. post_tac P;
    apply (post_ret P); eexists _, _; (split; [eapply (came_post P _ _ (label_body f)); [eassumption|apply body_post]|]);
    first [left; eexists; reflexivity | right; left; eexists; reflexivity | right; right; reflexivity].
Qed.
End SS.
