(* C18: the characters '@', '`' and '\' can never start a token.  Whenever the lexer model stands in
   front of one of them (outside a literal or pragma text, i.e. at a token boundary), what it emits is an
   error item - and by ConsumeTheorem.parse_ok_no_lexer_error a parse that saw an error item fails. *)
From Coq Require Import List NArith Bool Arith Lia.
Import ListNotations.
From PV Require Import Regex Base UnicodeTables LexTables PyRepr Lexer RegexLemmas LexerProofs LiteralProofs.
Open Scope nat_scope.

(* can a word of r start with c?  (over-approximation) *)
Fixpoint firstc (c: N) (r: re) : bool :=
  match r with
  | Eps | NotAhead _ | AtEnd => false
  | Chr cs => cset_mem c cs
  | Seq a b => firstc c a || (nullable a && firstc c b)
  | Alt a b => firstc c a || firstc c b
  | Star a => firstc c a
  end.

Lemma firstc_sound : forall r w, in_re r w -> forall c w', w = c :: w' -> firstc c r = true.
Proof.
  intros r w H. induction H; intros c0 w' E; cbn [firstc]; try discriminate.
  - injection E as -> _. assumption.
  - destruct x as [|x0 x'].
    + cbn [app] in E. rewrite (in_re_nil_nullable _ _ H eq_refl), (IHin_re2 _ _ E). cbn. apply orb_true_r.
    + cbn [app] in E. injection E as -> _. rewrite (IHin_re1 _ _ eq_refl). reflexivity.
  - rewrite (IHin_re _ _ E). reflexivity.
  - rewrite (IHin_re _ _ E). apply orb_true_r.
  - destruct x as [|x0 x'].
    + cbn [app] in E. apply (IHin_re2 _ _ E).
    + cbn [app] in E. injection E as -> _. apply (IHin_re1 _ _ eq_refl).
Qed.

Definition STRAY : list N := [64; 96; 92]%N.    (* @ ` \ *)

Lemma stray_rules : forallb (fun c => forallb (fun r => negb (firstc c (rre r)) || match ract r with A_ERROR _ => true | _ => false end) regex_rules) STRAY = true.
Proof. vm_compute. reflexivity. Qed.
Lemma stray_fixed : forallb (fun c => match bucket_of c fixed_by_first with None => true | Some _ => false end) STRAY = true.
Proof. vm_compute. reflexivity. Qed.
Lemma stray_not_special : forallb (fun c => negb (is_blank c) && negb (N.eqb c 10) && negb (N.eqb c 35)) STRAY = true.
Proof. vm_compute. reflexivity. Qed.

Definition is_err (i: raw_item) : bool := match i with RErr _ _ _ _ => true | _ => false end.

Theorem stray_char_is_reported : forall n0 st c rest, In c STRAY ->
  let items := fst (fst (lex_iter n0 st (c :: rest))) in items <> [] /\ forallb is_err items = true.
Proof.
  intros n0 st c rest Hc. cbv zeta.
  pose proof (forallb_In _ _ _ stray_not_special Hc) as T0. cbv beta in T0.
  apply andb_true_iff in T0. destruct T0 as [T0 T3]. apply andb_true_iff in T0. destruct T0 as [T1 T2].
  unfold lex_iter. destruct (is_blank c); [discriminate|]. destruct (N.eqb c 10); [discriminate|]. destruct (N.eqb c 35); [discriminate|].
  destruct (match_token_cases n0 st (c :: rest)) as [r k p s' E Hpn Hr Hp Hk|k p s' _ _ Hf| | |r Hr Ha Hn|];
    cbn [fst]; try (split; [discriminate|reflexivity]); exfalso.
  - (* a rule one of whose words starts with c is an error rule *)
    assert (Hf: firstc c (rre r) = true) by (destruct p as [|c' p']; [congruence|injection E as -> _; exact (firstc_sound _ _ Hp _ _ eq_refl)]).
    pose proof (forallb_In _ _ _ (forallb_In _ _ _ stray_rules Hc) Hr) as T. cbv beta in T. rewrite Hf in T.
    revert T Hk. destruct (ract r); cbn; intros T Hk; [discriminate T..|destruct Hk].
  - pose proof (forallb_In _ _ _ stray_fixed Hc) as T. cbv beta in T. unfold fixed_match in Hf.
    revert T Hf. destruct (bucket_of c fixed_by_first); [|intros _]; discriminate.
  - exact (no_crash_rule r Hr Ha Hn).
Qed.
