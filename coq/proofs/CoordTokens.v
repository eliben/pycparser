(* C11: identifiers and constants carry exactly the position of the token that spells them.
   For EVERY parser state: whenever p_identifier / p_identifier_or_typeid / p_constant (the producers of ID and Constant
   nodes in primary expressions, offsetof member designators, K&R identifier lists and designators) return a
   node, the call consumed exactly one token t - the next token of the stream (advance from the same state returns
   it and leads to the same state) - the node spells tv t, and its coordinate is the position tp t of that very token
   in the file in force at that moment. *)
From Coq Require Import List NArith Bool Arith.
Import ListNotations.
From PV Require Import Regex Base AstDefs AstSpec AstImpl NodeModel LexTables ParserTables PyRepr ParserBase ParserDecl ParserMain TableProofs PostLib.

Section CT.
Variable P : Type.
Notation pstate := (ParserBase.pstate P).

Lemma tcoord_Ok : forall (t: tok P) c (s s': pstate), tcoord P t s = Ok (c, s') -> c = Some (mkCoord P (curfile P s) (tp t)) /\ s' = s.
Proof. intros t c s s' H. injection H as <- <-. split; reflexivity. Qed.

Theorem identifier_is_its_token : forall (s: pstate) N s', p_identifier P s = Ok (N, s') ->
  exists t, advance P s = Ok (t, s') /\ tk t = K_ID /\ N = VNode C_ID [VStr (tv t)] (Some (mkCoord P (curfile P s') (tp t))).
Proof.
  intros s N s' H. unfold p_identifier in H. apply bind_Ok in H as (t & s1 & Ee & H). apply expect_Ok in Ee as [Ea Ek].
  apply bind_Ok in H as (c & s2 & Ec & H). apply tcoord_Ok in Ec as [-> ->]. apply ret_Ok in H as [-> ->].
  exists t. split; [exact Ea|]. split; [apply kind_eqb_eq; exact Ek|reflexivity].
Qed.

Theorem identifier_or_typeid_is_its_token : forall (s: pstate) N s', p_identifier_or_typeid P s = Ok (N, s') ->
  exists t, advance P s = Ok (t, s') /\ (tk t = K_ID \/ tk t = K_TYPEID) /\ N = VNode C_ID [VStr (tv t)] (Some (mkCoord P (curfile P s') (tp t))).
Proof.
  intros s N s' H. unfold p_identifier_or_typeid in H. apply bind_Ok in H as (t & s1 & Ea & H).
  apply bind_Ok in H as (c & s2 & Ec & H). apply tok_coord_Ok in Ec as [-> ->].
  destruct (kind_eqb (tk t) K_ID || kind_eqb (tk t) K_TYPEID) eqn:Ek; [|discriminate]. apply ret_Ok in H as [-> ->].
  exists t. split; [exact Ea|]. split; [|reflexivity].
  apply orb_true_iff in Ek as [Ek|Ek]; [left|right]; apply kind_eqb_eq; exact Ek.
Qed.

Theorem constant_is_its_token : forall (s: pstate) N s', p_constant P s = Ok (N, s') ->
  exists t ty, advance P s = Ok (t, s') /\ N = VNode C_Constant [VStr ty; VStr (tv t)] (Some (mkCoord P (curfile P s') (tp t))).
Proof.
  intros s N s' H. unfold p_constant in H. apply bind_Ok in H as (t & s1 & Ea & H).
  apply bind_Ok in H as (c & s2 & Ec & H). apply tok_coord_Ok in Ec as [-> ->]. exists t.
  destruct (kind_in (tk t) tbl_INT_CONST); [|destruct (kind_in (tk t) tbl_FLOAT_CONST); [|destruct (kind_in (tk t) tbl_CHAR_CONST); [|discriminate]]].
  - destruct (int_const_type _ (tv t)) as [ty|]; [|discriminate]. apply ret_Ok in H as [-> ->]. exists ty. split; [exact Ea|reflexivity].
  - destruct (float_const_type (tv t)) as [ty|]; [|discriminate]. apply ret_Ok in H as [-> ->]. exists ty. split; [exact Ea|reflexivity].
  - apply ret_Ok in H as [-> ->]. exists (s2l "char"). split; [exact Ea|reflexivity].
Qed.
End CT.
