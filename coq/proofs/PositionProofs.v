(* C09: each token's column is where it really starts.  Two single steps of the lexer, under the invariant
   [PosInv] that its state agrees with the text consumed so far: an error-free _match_token call emits one
   token whose column is 1 + the number of characters since the last newline of that text, and keeps the
   invariant; so does the skipping of a blank or a newline. *)
From Coq Require Import List NArith Bool Arith Lia.
Import ListNotations.
From PV Require Import Regex Base UnicodeTables LexTables PyRepr Lexer RegexLemmas LexerProofs.
Open Scope N_scope.

Fixpoint no_chr (c: N) (r: re) : bool :=
  match r with
  | Eps | AtEnd | NotAhead _ => true
  | Chr cs => negb (cset_mem c cs)
  | Seq a b | Alt a b => no_chr c a && no_chr c b
  | Star a => no_chr c a
  end.

Lemma no_chr_sound : forall c r w, no_chr c r = true -> in_re r w -> ~ In c w.
Proof.
  intros c r w H Hin. induction Hin; cbn [no_chr] in H; try (intros []; fail).
  - intros [<-|[]]. rewrite H0 in H. discriminate.
  - apply andb_true_iff in H. destruct H as [Ha Hb]. intros Hc. apply in_app_or in Hc. tauto.
  - apply andb_true_iff in H. destruct H as [Ha Hb]. auto.
  - apply andb_true_iff in H. destruct H as [Ha Hb]. auto.
  - intros Hc. apply in_app_or in Hc. tauto.
Qed.

Definition is_token_rule (r: rule) : bool := match ract r with A_ERROR _ => false | _ => true end.
Lemma token_rules_no_newline : forallb (fun r => negb (is_token_rule r) || no_chr 10 (rre r)) regex_rules = true.
Proof. vm_compute. reflexivity. Qed.
Lemma fixed_no_newline : forallb (fun e => negb (existsb (N.eqb 10) (snd e))) fixed_tokens = true.
Proof. vm_compute. reflexivity. Qed.

(* characters of pre after its last newline *)
Fixpoint last_line_from (s acc: str) : str :=
  match s with
  | [] => acc
  | c :: r => if N.eqb c 10 then last_line_from r [] else last_line_from r (acc ++ [c])
  end.
Definition last_line (pre: str) : str := last_line_from pre [].

Lemma last_line_from_app_nonl : forall p s acc, ~ In 10 p -> last_line_from (s ++ p) acc = last_line_from s acc ++ p.
Proof.
  intros p s. induction s as [|c r IH]; intros acc Hn; cbn.
  - revert acc. induction p as [|d q IHq]; intros acc; cbn; [now rewrite app_nil_r|].
    destruct (N.eqb d 10) eqn:E; [apply N.eqb_eq in E; subst; exfalso; apply Hn; left; reflexivity|].
    rewrite IHq; [now rewrite <- app_assoc|]. intros Hin. apply Hn. right. exact Hin.
  - destruct (N.eqb c 10); apply IH; exact Hn.
Qed.
Lemma last_line_app_nonl : forall pre p, ~ In 10 p -> last_line (pre ++ p) = last_line pre ++ p.
Proof. intros. apply last_line_from_app_nonl. assumption. Qed.
Lemma last_line_from_nl : forall s acc, last_line_from (s ++ [10]) acc = [].
Proof. induction s as [|c r IH]; intros acc; cbn; [reflexivity|]. destruct (N.eqb c 10); apply IH. Qed.
Lemma last_line_nl : forall pre, last_line (pre ++ [10]) = [].
Proof. intros. apply last_line_from_nl. Qed.

Definition PosInv (pre: str) (st: lexst) : Prop :=
  l_pos st = lenN pre /\ l_line_start st = lenN pre - lenN (last_line pre).

Lemma lenN_app : forall a b: str, lenN (a ++ b) = lenN a + lenN b.
Proof. intros. unfold lenN. rewrite app_length, Nat2N.inj_add. reflexivity. Qed.
Lemma last_line_from_length : forall s acc, (length (last_line_from s acc) <= length acc + length s)%nat.
Proof.
  induction s as [|c r IH]; intros acc; cbn [last_line_from length]; [lia|].
  destruct (N.eqb c 10); [specialize (IH [])|specialize (IH (acc ++ [c])); rewrite app_length in IH]; cbn [length] in IH; lia.
Qed.
Lemma last_line_le : forall pre, lenN (last_line pre) <= lenN pre.
Proof. intros pre. pose proof (last_line_from_length pre []) as H. unfold lenN, last_line. cbn [length] in H. lia. Qed.

Definition no_err (items: list raw_item) : bool :=
  forallb (fun i => match i with RTok _ _ _ _ _ => true | _ => false end) items.

Lemma fixed_match_no_newline : forall s k lit, fixed_match s = Some (k, lit) -> ~ In 10 lit.
Proof.
  intros s k lit H. apply fixed_match_in in H. destruct H as (cb & Hcb & He & _).
  pose proof (forallb_In _ _ _ (forallb_In _ _ _ buckets_sound Hcb) He) as Hb. apply andb_true_iff in Hb. destruct Hb as [Hb _].
  apply in_bucket_In in Hb. destruct Hb as (e' & He' & Hs). cbn [snd] in Hs. subst lit.
  pose proof (forallb_In _ _ _ fixed_no_newline He') as Hf. apply negb_true_iff in Hf. intros Hin10.
  rewrite (proj2 (existsb_exists _ _)) in Hf; [discriminate|]. exists 10. split; [exact Hin10|reflexivity].
Qed.

Lemma advance_PosInv : forall pre st p, PosInv pre st -> ~ In 10 p -> PosInv (pre ++ p) (lex_advance st p).
Proof.
  intros pre st p [Hp Hl] Hn. pose proof (last_line_le pre) as Hle. split; cbn.
  - rewrite Hp, lenN_app. reflexivity.
  - rewrite Hl, last_line_app_nonl, !lenN_app by exact Hn. lia.
Qed.

(* _match_token: what an error-free match consumed has no newline because no token rule and no fixed token can
   contain one *)
Theorem match_token_position : forall n0 st pre rest items st' rest',
  PosInv pre st -> rest <> [] -> match_token n0 st rest = (items, st', rest') -> no_err items = true ->
  exists p k, rest = p ++ rest' /\ ~ In 10 p /\ PosInv (pre ++ p) st' /\ l_lineno st' = l_lineno st /\
              items = [RTok k p (l_lineno st) (1 + lenN (last_line pre)) (l_file st)].
Proof.
  intros n0 st pre rest items st' rest' Hinv Hne Em Herr.
  assert (Hcol: forall k p, mk_tok st k p (l_pos st) = RTok k p (l_lineno st) (1 + lenN (last_line pre)) (l_file st)).
  { intros k p. destruct Hinv as [Hl Hs]. pose proof (last_line_le pre). unfold mk_tok, column_of. rewrite Hl, Hs. f_equal. lia. }
  revert Em Herr.
  destruct (match_token_cases n0 st rest) as [r k p s' E _ Hr Hp Hk|k p s' E _ Hf| | | |];
    intros Em Herr; injection Em as <- <- <-; try discriminate Herr; [| |congruence];
    rewrite Hcol; (assert (Hn: ~ In 10 p); [|exists p, k; auto 6 using advance_PosInv]).
  - pose proof (forallb_In _ _ _ token_rules_no_newline Hr) as T. unfold is_token_rule in T.
    revert T Hk. destruct (ract r); cbn; intros T Hk; [| |destruct Hk]; exact (no_chr_sound _ _ _ T Hp).
  - exact (fixed_match_no_newline _ _ _ Hf).
Qed.

Theorem blank_newline_position : forall n0 st pre c rest items st' rest',
  PosInv pre st -> (is_blank c = true \/ c = 10) -> lex_iter n0 st (c :: rest) = (items, st', rest') ->
  items = [] /\ rest' = rest /\ PosInv (pre ++ [c]) st' /\
  l_lineno st' = (if N.eqb c 10 then l_lineno st + 1 else l_lineno st).
Proof.
  intros n0 st pre c rest items st' rest' Hinv Hc H. cbn [lex_iter] in H. destruct (is_blank c) eqn:Eb.
  - injection H as <- <- <-. assert (Hn: c <> 10) by (intros ->; discriminate Eb).
    rewrite (proj2 (N.eqb_neq c 10) Hn). split; [reflexivity|]. split; [reflexivity|]. split; [|reflexivity].
    apply (advance_PosInv pre st [c] Hinv). intros [E|[]]. congruence.
  - destruct Hc as [Hc| ->]; [congruence|]. injection H as <- <- <-. destruct Hinv as [Hp Hl]. repeat split; cbn.
    + rewrite Hp, lenN_app. reflexivity.
    + rewrite last_line_nl, Hp, lenN_app. cbn. lia.
Qed.
