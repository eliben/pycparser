(* C14: conformance of the node classes with the specification, agreement of
   children() and __iter__. *)
From Coq Require Import List NArith Bool Arith Lia.
Import ListNotations.
From PV Require Import Regex Base AstDefs AstSpec AstImpl AstGenImpl PyRepr NodeModel RegexLemmas.
Open Scope N_scope.

(* checked by evaluation in the virtual machine, as a cast: vm_compute would read the 49-class table back into a term *)
Theorem impl_conforms_to_spec : ast_impl = map template ast_spec.
Proof. exact (@eq_refl _ ast_impl <: ast_impl = map template ast_spec). Qed.

Theorem generator_is_template : ast_gen_impl = map template ast_spec.
Proof. rewrite <- impl_conforms_to_spec. exact (@eq_refl _ ast_impl <: ast_gen_impl = ast_impl). Qed.

Theorem cls_table_aligned :
  map (fun c => option_map ci_name (impl_of c)) all_cls = map (fun c => Some (cls_name c)) all_cls.
Proof. vm_compute. reflexivity. Qed.

Lemma all_cls_nth : forall c, nth_error all_cls (N.to_nat (cls_index c)) = Some c.
Proof. destruct c; reflexivity. Qed.
Lemma cls_eqb_eq : forall a b, cls_eqb a b = true -> a = b.
Proof. intros a b H. apply N.eqb_eq in H. pose proof (all_cls_nth a) as E. rewrite H, all_cls_nth in E. congruence. Qed.

(* readable consequences of the template, stated on the implementation table *)
Definition entries_of_kind (k: ekind) (cs: class_spec) : list str :=
  map fst (filter (fun e => match snd e, k with EAttr, EAttr | EChild, EChild | ESeq, ESeq => true | _, _ => false end) (cs_entries cs)).

Definition list_str_eqb (a b: list str) : bool :=
  (fix go a b := match a, b with
                 | [], [] => true
                 | x :: a', y :: b' => str_eqb x y && go a' b'
                 | _, _ => false end) a b.

(* constructor parameters = cfg order followed by coord; only coord has a default *)
Theorem ctor_order :
  forallb (fun p => list_str_eqb (ci_params (fst p)) (map fst (cs_entries (snd p)) ++ [s_coord])
                    && Nat.eqb (ci_ndefaults (fst p)) 1) (combine ast_impl ast_spec) = true
  /\ length ast_impl = length ast_spec.
Proof. split; vm_compute; reflexivity. Qed.

Theorem attr_names_are_plain_fields :
  forallb (fun p => list_str_eqb (ci_attr_names (fst p)) (entries_of_kind EAttr (snd p))) (combine ast_impl ast_spec) = true.
Proof. vm_compute. reflexivity. Qed.

Definition children_labels (cp: children_prog) : list (str * bool) :=   (* (field, is_sequence) in order *)
  match cp with
  | CP_empty => []
  | CP_steps s => map (fun st => match st with CS_child x _ _ => (x, false) | CS_seq x _ => (x, true) end) s
  end.

Theorem children_singles_then_sequences :
  forallb (fun p =>
     let want := map (fun n => (n, false)) (entries_of_kind EChild (snd p)) ++ map (fun n => (n, true)) (entries_of_kind ESeq (snd p)) in
     let got := children_labels (ci_children (fst p)) in
     list_str_eqb (map fst got) (map fst want) &&
     (fix go a b := match a, b with [], [] => true | x :: a', y :: b' => Bool.eqb x y && go a' b' | _, _ => false end)
       (map snd got) (map snd want))
    (combine ast_impl ast_spec) = true.
Proof. vm_compute. reflexivity. Qed.

(* every slot other than __weakref__ is assigned by __init__ from the parameter of the same name *)
Theorem init_assigns_every_slot :
  forallb (fun ci => list_str_eqb (map fst (ci_assigns ci)) (firstn (length (ci_slots ci) - 1) (ci_slots ci))
                     && list_str_eqb (map snd (ci_assigns ci)) (ci_params ci)
                     && list_str_eqb (map fst (ci_assigns ci)) (ci_params ci)) ast_impl = true.
Proof. vm_compute. reflexivity. Qed.

Fixpoint steps_agree (cs: list cstep) (is: list istep) : bool :=
  match cs, is with
  | [], [] => true
  | CS_child x _ y :: cs', IS_child x' y' :: is' => str_eqb x x' && str_eqb y y' && steps_agree cs' is'
  | CS_seq x _ :: cs', IS_seq x' :: is' => str_eqb x x' && steps_agree cs' is'
  | _, _ => false
  end.

Definition progs_agree (cp: children_prog) (ip: iter_prog) : bool :=
  match cp, ip with
  | CP_empty, IP_empty => true
  | CP_steps [], IP_empty => true
  | CP_steps cs, IP_steps is => steps_agree cs is
  | _, _ => false
  end.

Theorem all_classes_progs_agree : forallb (fun ci => progs_agree (ci_children ci) (ci_iter ci)) ast_impl = true.
Proof. vm_compute. reflexivity. Qed.


Section Agree.
Variable P : Type.

Lemma map_snd_indexed : forall l i (vs: list (value P)), map snd (indexed_labels P l i vs) = vs.
Proof. intros l i vs. revert i. induction vs as [|v vs IH]; intros i; cbn; [reflexivity|]. f_equal. apply IH. Qed.

Lemma run_agree : forall ci fs cs is, steps_agree cs is = true ->
  option_map (map snd) (run_children P ci fs cs) = run_iter P ci fs is.
Proof.
  intros ci fs cs. induction cs as [|c cs IH]; intros is H.
  - destruct is; [reflexivity|discriminate].
  - destruct c as [x l y|x l]; destruct is as [|[x' y'|x'] is]; cbn [steps_agree] in H; try discriminate.
    + apply andb_true_iff in H. destruct H as [H H3]. apply andb_true_iff in H. destruct H as [H1 H2].
      apply str_eqb_iff in H1. apply str_eqb_iff in H2. subst x' y'.
      cbn [run_children run_iter]. specialize (IH _ H3).
      destruct (get_field P ci fs x) as [vx|]; [|reflexivity].
      destruct vx; try exact IH;
        (destruct (get_field P ci fs y) as [vy|]; [|reflexivity];
         rewrite <- IH; destruct (run_children P ci fs cs); reflexivity).
    + apply andb_true_iff in H. destruct H as [H1 H3]. apply str_eqb_iff in H1. subst x'.
      cbn [run_children run_iter]. specialize (IH _ H3).
      destruct (get_field P ci fs x) as [vx|]; [|reflexivity].
      destruct (seq_items P vx) as [items|]; [|reflexivity].
      rewrite <- IH. destruct (run_children P ci fs cs) as [rest|]; [|reflexivity].
      cbn. rewrite map_app, map_snd_indexed. reflexivity.
Qed.

(* for every node of every class, with arbitrary field values (absent
   children, sequences None / empty / of any length), children() and
   iteration report the same nodes in the same order *)
Theorem children_iter_agree : forall (v: value P),
  option_map (map snd) (children P v) = iter P v.
Proof.
  intros [| s | l | c fs co]; try reflexivity.
  unfold children, iter. destruct (impl_of c) as [ci|] eqn:Hc; [|reflexivity].
  assert (Hin: In ci ast_impl) by (eapply nth_error_In; exact Hc).
  pose proof all_classes_progs_agree as Hall. rewrite forallb_forall in Hall. specialize (Hall _ Hin).
  unfold children_of, iter_of. unfold progs_agree in Hall.
  destruct (ci_children ci) as [|cs]; destruct (ci_iter ci) as [|is]; try discriminate; try reflexivity.
  - destruct cs; [reflexivity|discriminate].
  - apply run_agree. destruct cs; exact Hall.
Qed.
End Agree.
