(* C01 / C03 / C04 / C07 / C16, token level: DECLARATIONS `T x1 [= e1] , x2 [= e2] , ... ;` - T a non-empty run of simple
   type-specifier keywords, the xi identifiers, each ei a token sequence that p_assignment_expression parses back to a given tree
   and that does not open with a brace (InitOK) - are parsed by the whole-parser model's p_declaration to one Decl per declarator,
   in order, each of type TypeDecl(xi, IdentifierType(names of T)), and the tokens that follow are seen exactly as before.
   Forward reasoning through p_declaration_specifiers (p_spec_loop in declaration mode), _peek_declarator_name_info (a speculative
   scan that is always reset), p_declarator / p_direct_declarator / p_decl_suffixes, p_init_declarator(_list), p_initializer,
   _build_declarations (adjust_first, build_one, _fix_decl_name_type, fix_atomic_specifiers), and the scope stack.
   The scope stack is assumed free of typedef names (NoTD, carried by every step through SC of StreamLib): then declaring a name
   (add_identifier) changes the classification of no identifier to come. *)
From Coq Require Import String.
From Coq Require Import List NArith Bool Arith Lia.
Import ListNotations.
From PV Require Import Regex Base AstDefs AstSpec AstImpl GenTables NodeModel Generator ClimbProofs ClimbComplete GenParen GenBinop.
From PV Require Import LexTables ParserTables PyRepr ParserBase ParserDecl ParserMain LexerProofs TableProofs.
From PV Require Import BinaryRefine ExprShape UnaryShape CoordProofs ElseProofs StreamLib RoundTrip Triple RoundTripGen TypeName.
From PV Require DeclRefine.
Open Scope nat_scope.

Lemma id_stops_spec : spec_stop true K_ID.
Proof. vm_compute. repeat split. Qed.

Section DT.
Variable P : Type.
Notation pstate := (ParserBase.pstate P).
Notation tok := (ParserBase.tok P).
Notation node := (ParserBase.node P).
Notation Up := (StreamLib.Up P).
Notation Spell := (RoundTrip.Spell P).
Notation NoTD := (StreamLib.NoTD).

Lemma spec_loop_run_d : forall kvs, Forall (fun kv => kind_in (fst kv) tbl_TYPE_SPEC_SIMPLE = true) kvs ->
  forall st (s: pstate) le (stop: tok) l0, Spell le kvs -> Up s (le ++ stop :: l0) -> tk stop = K_ID ->
  exists f0 ns st' s', (forall f, f0 <= f -> p_spec_loop P f true st s = Ok (st', s')) /\ Up s' (stop :: l0) /\ Ran P s s' (length le) /\
    IdNodes P ns (map snd kvs) /\ ss_spec P st' = fold_left (add_type P) ns (ss_spec P st) /\
    ss_saw_type P st' = (ss_saw_type P st || negb (match ns with [] => true | _ => false end)).
Proof.
  intros kvs HF st. exact (spec_loop_runs P _ _ _ _ (spec_loop_tr P _ true K_ID id_stops_spec kvs HF st)).
Qed.

Lemma declspec_eq : forall f allow,
  p_declaration_specifiers P (S f) allow =
  bind P (p_spec_loop P f true (mkSS P None false false None)) (fun st =>
    match ss_spec P st with
    | None => bind P (cur_file P) (fun fl => fail P (L_file P fl) (s2l "Invalid declaration"))
    | Some spec =>
      if negb (ss_saw_type P st) && negb allow then fail P (loc_of P (ss_first P st)) (s2l "Missing type in declaration")
      else ret P (spec, ss_saw_type P st, ss_first P st)
    end).
Proof. reflexivity. Qed.

(* a typedef-free scope stack classifies every identifier as an identifier: what is to come does not depend on it *)
Lemma notd_get : forall n fr, Forall (fun e : option str * bool => snd e = false) fr -> scope_get n fr <> Some true.
Proof.
  intros n fr H. induction H as [|[k b] fr Hb _ IH]; cbn [scope_get]; [discriminate|]. cbn [snd] in Hb.
  destruct (name_eqb n k); [rewrite Hb; discriminate|exact IH].
Qed.

Lemma notd_not_type : forall sc v, NoTD sc -> is_type_in (Some v) sc = false.
Proof.
  intros sc v [_ H]. induction H as [|fr sc Hfr _ IH]; [reflexivity|]. cbn [is_type_in].
  pose proof (notd_get (Some v) fr Hfr) as Hg. destruct (scope_get (Some v) fr) as [[|]|]; [congruence|reflexivity|exact IH].
Qed.

(* ... so delivery sees only the depth of such a stack *)
Lemma cl_notd_depth : forall sc sc' i t sc1, NoTD sc -> NoTD sc' -> length sc' = length sc -> cl P sc i = Some (t, sc1) ->
  exists sc1', cl P sc' i = Some (t, sc1') /\ length sc1' = length sc1.
Proof.
  intros sc sc' i t sc1 HN HN' Hlen Hc. destruct i as [k v p fa|msg p f|]; cbn [cl] in *; try discriminate.
  rewrite (notd_not_type sc v HN) in Hc. rewrite (notd_not_type sc' v HN'). destruct (kind_eqb k K_LBRACE).
  - injection Hc as <- <-. eexists. split; [reflexivity|]. cbn [length]. congruence.
  - destruct (kind_eqb k K_RBRACE); [|injection Hc as <- <-; eexists; split; [reflexivity|exact Hlen]].
    destruct sc as [|a [|b sr]]; try discriminate Hc. destruct sc' as [|a' [|b' sr']]; try discriminate Hlen.
    injection Hc as <- <-. eexists. split; [reflexivity|]. cbn [length] in *. lia.
Qed.

Lemma UpR_notd : forall sc rw l, UpR P sc rw l -> forall sc', NoTD sc -> NoTD sc' -> length sc' = length sc -> UpR P sc' rw l.
Proof.
  intros sc rw l H. induction H as [sc r|sc i r t sc1 l Hc HU IH]; intros sc' HN HN' Hlen; [constructor|].
  destruct (cl_notd_depth sc sc' i t sc1 HN HN' Hlen Hc) as (sc1' & Hc' & Hlen'). apply (UpR_cons P sc' i r t sc1' l Hc').
  exact (IH sc1' (cl_notd P _ _ _ _ Hc HN) (cl_notd P _ _ _ _ Hc' HN') Hlen').
Qed.

Definition with_scopes (s: pstate) (sc: list (list (option str * bool))) : pstate :=
  mkPS P (raw P s) (eof_file P s) (before P s) (after P s) (idx P s) sc (curfile P s) (ticks P s).

Lemma scope_set_false : forall n fr, Forall (fun e : option str * bool => snd e = false) fr -> Forall (fun e : option str * bool => snd e = false) (scope_set n false fr).
Proof.
  intros n fr H. induction H as [|[k b] fr Hb Hfr IH]; cbn [scope_set]; [constructor; [reflexivity|constructor]|].
  destruct (name_eqb n k); constructor; try assumption; reflexivity.
Qed.

Lemma add_identifier_notd : forall (s: pstate) n c l, NoTD (scopes P s) -> Up s l ->
  exists s', add_identifier P n c s = Ok (tt, s') /\ Up s' l /\ Same P s s' /\ NoTD (scopes P s').
Proof.
  intros s n c l HN HU. destruct HN as [Hne HF]. destruct (scopes P s) as [|top r] eqn:Esc; [congruence|].
  inversion HF as [|x y Htop Hr]; subst x y.
  assert (HN': NoTD (scope_set n false top :: r)). { split; [discriminate|constructor; [apply scope_set_false; exact Htop|exact Hr]]. }
  exists (with_scopes s (scope_set n false top :: r)). split; [|split; [|split; [|exact HN']]].
  - unfold add_identifier. unfold bind at 1. unfold get at 1. rewrite Esc.
    pose proof (notd_get n top Htop) as Hg. destruct (scope_get n top) as [[|]|]; try congruence; unfold set_top; rewrite Esc; reflexivity.
  - destruct HU as [a [l2 [Ha [Hl HU]]]]. exists a, l2. cbn [with_scopes after scopes raw]. split; [exact Ha|split; [exact Hl|]].
    apply (UpR_notd _ _ _ HU); [rewrite Esc; split; [discriminate|exact HF]|exact HN'|rewrite Esc; reflexivity].
  - split; [reflexivity|split; [reflexivity|split; [reflexivity|split; [intros _; exact HN'|reflexivity]]]].
Qed.

(* _peek_declarator_name_info in front of a plain identifier: one token read, then put back *)
Lemma scan_id : forall (s: pstate) x l, Up s (x :: l) -> tk x = K_ID ->
  exists s', (forall f, 2 <= f -> peek_declarator_name_info P f s = Ok ((Some K_ID, false), s')) /\ Up s' (x :: l) /\
    idx P s' = idx P s /\ ticks P s' = (ticks P s + 1)%N /\ SC P s s'.
Proof.
  intros s x l HU Hk.
  assert (Hnt: kind_eqb (tk x) K_TIMES = false) by (rewrite Hk; reflexivity).
  destruct (accept_miss P s x l K_TIMES HU Hnt) as [s1 [H1 [HU1 HS1]]].
  destruct (peek_up P s1 x l HU1) as [s2 [H2 [HU2 HS2]]].
  destruct (advance_up P s2 x l HU2) as [s3 [H3 [HU3 HA3]]].
  pose proof (Same_Adv P _ _ _ _ (Same_trans P _ _ _ HS1 HS2) HA3) as [Hb [Hi [Ht Hsc]]].
  destruct (reset_one P s3 x (before P s) (idx P s) l Hb Hi HU3) as [s4 [H4 [HU4 [_ [Hi4 [Ht4 Hsc4]]]]]].
  exists s4. split; [|split; [exact HU4|split; [exact Hi4|split; [congruence|exact (SC_trans P _ _ _ Hsc Hsc4)]]]].
  intros f Hf. destruct f as [|[|f]]; try lia.
  unfold peek_declarator_name_info. eapply bind_then; [apply mark_eq|]. eapply bind_then; [|eapply bind_then; [exact H4|reflexivity]].
  cbn [scan_name_info skip_stars]. eapply bind_then; [eapply bind_then; [exact H1|reflexivity]|]. eapply bind_then; [exact H2|].
  cbv beta iota. rewrite Hk. change (kind_eqb K_ID K_ID || kind_eqb K_ID K_TYPEID) with true. cbv iota. eapply bind_then; [exact H3|]. reflexivity.
Qed.

Lemma declarator_eq : forall f, p_declarator P (S f) =
  bind P (p_any_declarator P f false false) (fun r => match fst r with Some d => ret P d | None => crash P CK_Assertion end).
Proof. reflexivity. Qed.
Lemma any_declarator_eq : forall f aa tp, p_any_declarator P (S f) aa tp =
  bind P (peek_declarator_name_info P f) (fun info =>
    let name_type := fst info in
    let saw_paren := snd info in
    let abstract := match name_type with
                    | None => true
                    | Some k => tp && kind_eqb k K_TYPEID && saw_paren
                    end in
    if abstract then
      if negb aa then
        bind P (peek P) (fun t =>
        match t with
        | Some t' => bind P (tok_coord P t') (fun c => fail P (L_coord P c) (s2l "Invalid declarator"))
        | None => bind P (cur_file P) (fun fl => fail P (L_file P fl) (s2l "Invalid declarator"))
        end)
      else bind P (p_abstract_declarator_opt P f) (fun d => ret P (d, false))
    else
      if okind_is name_type K_TYPEID then
        bind P (p_declarator_kind P f false (negb tp)) (fun d => ret P (Some d, true))
      else bind P (p_declarator_kind P f true true) (fun d => ret P (Some d, true))).
Proof. reflexivity. Qed.

(* p_declarator_kind in front of a name: the name becomes a TypeDecl, and its suffixes follow *)
Lemma kind_id : forall (s: pstate) x l, Up s (x :: l) -> tk x = K_ID ->
  exists c s1, Up s1 l /\ Adv P x s s1 /\
    forall f d s', p_decl_suffixes P f (mkTypeDecl P (VStr (tv x)) VNone VNone VNone (Some c)) s1 = Ok (d, s') ->
                   p_declarator_kind P (S (S f)) true true s = Ok (d, s').
Proof.
  intros s x l HU Hk.
  destruct (peek_kind_up P s x _ HU) as [s1 [H1 [HU1 HS1]]].
  destruct (accept_miss P s1 x _ K_LPAREN HU1 ltac:(rewrite Hk; reflexivity)) as [s2 [H2 [HU2 HS2]]].
  destruct (expect_up P s2 x _ K_ID HU2 ltac:(rewrite Hk; reflexivity)) as [s3 [H3 [HU3 HA3]]].
  exists (mkCoord P (curfile P s3) (tp x)), s3. split; [exact HU3|]. split; [exact (Same_Adv P _ _ _ _ (Same_trans P _ _ _ HS1 HS2) HA3)|].
  intros f d s' E. rewrite DeclRefine.kind_eq. eapply bind_then; [exact H1|]. rewrite Hk. change (okind_is (Some K_ID) K_TIMES) with false. cbv iota.
  eapply bind_then; [reflexivity|]. eapply bind_then; [|reflexivity]. rewrite DeclRefine.direct_eq. eapply bind_then; [exact H2|].
  eapply bind_then; [|exact E]. eapply bind_then; [exact H3|]. reflexivity.
Qed.

Lemma declarator_kind_id : forall (s: pstate) x n l, Up s (x :: n :: l) -> tk x = K_ID ->
  kind_eqb (tk n) K_LBRACKET = false -> kind_eqb (tk n) K_LPAREN = false ->
  exists c s', (forall f, 3 <= f -> p_declarator_kind P f true true s = Ok (mkTypeDecl P (VStr (tv x)) VNone VNone VNone (Some c), s')) /\ Up s' (n :: l) /\
    idx P s' = S (idx P s) /\ ticks P s' = (ticks P s + 1)%N /\ SC P s s'.
Proof.
  intros s x n l HU Hk Hn1 Hn2. destruct (kind_id s x _ HU Hk) as (c & s1 & HU1 & HA1 & E).
  destruct (peek_kind_up P s1 n _ HU1) as [s2 [H2 [HU2 HS2]]]. exists c, s2. split; [|split; [exact HU2|exact (proj2 (Adv_Same P _ _ _ _ HA1 HS2))]].
  intros f Hf. do 3 (destruct f as [|f]; [lia|]). apply E. rewrite DeclRefine.suffix_eq. eapply bind_then; [exact H2|]. cbn [okind_is]. rewrite Hn1, Hn2. reflexivity.
Qed.

Lemma declarator_id : forall (s: pstate) x n l, Up s (x :: n :: l) -> tk x = K_ID ->
  kind_eqb (tk n) K_LBRACKET = false -> kind_eqb (tk n) K_LPAREN = false ->
  exists c s', (forall f, 7 <= f -> p_declarator P f s = Ok (mkTypeDecl P (VStr (tv x)) VNone VNone VNone (Some c), s')) /\ Up s' (n :: l) /\
    idx P s' = S (idx P s) /\ ticks P s' = (ticks P s + 2)%N /\ SC P s s'.
Proof.
  intros s x n l HU Hk Hn1 Hn2.
  destruct (scan_id s x (n :: l) HU Hk) as [s1 [H1 [HU1 [Hi1 [Ht1 Hsc1]]]]].
  destruct (declarator_kind_id s1 x n l HU1 Hk Hn1 Hn2) as (c & s2 & H2 & HU2 & Hi2 & Ht2 & Hsc2).
  exists c, s2. split; [|split; [exact HU2|split; [congruence|split; [rewrite Ht2, Ht1; lia|exact (SC_trans P _ _ _ Hsc1 Hsc2)]]]].
  intros f Hf. do 2 (destruct f as [|f]; [lia|]). rewrite declarator_eq. eapply bind_then.
  - rewrite any_declarator_eq. eapply bind_then; [apply H1; lia|]. eapply bind_then; [apply H2; lia|]. reflexivity.
  - reflexivity.
Qed.

Lemma declarator_tr : forall pr x, Tr P pr (p_declarator P) [(K_ID, x)]
  (fun k => kind_eqb k K_LBRACKET = false /\ kind_eqb k K_LPAREN = false) (fun d => exists c, d = mkTypeDecl P (VStr x) VNone VNone VNone (Some c)).
Proof.
  intros pr x s le n l HS HU [Hn1 Hn2] _. destruct (Spell_one P _ _ _ HS) as [tx [-> [Hk <-]]].
  destruct (declarator_id s tx n l HU Hk Hn1 Hn2) as (c & s' & H1 & HU' & Hi & Ht & Hsc). eexists 7, _, s'.
  split; [exact H1|]. split; [exact HU'|]. split; [exists c; reflexivity|]. cbn [length]. cost_tac.
Qed.

Lemma idl_eq : forall f first io, p_init_declarator_list P (S f) first io =
  bind P (match first with Some d => ret P d | None => p_init_declarator P f io end) (fun d0 =>
  bind P (p_init_declarators_more P f io) (fun rest => ret P (d0 :: rest))).
Proof. reflexivity. Qed.
Lemma idm_eq : forall f io, p_init_declarators_more P (S f) io =
  bind P (accept P K_COMMA) (fun c =>
    match c with
    | Some _ => bind P (p_init_declarator P f io) (fun d => bind P (p_init_declarators_more P f io) (fun r => ret P (d :: r)))
    | None => ret P []
    end).
Proof. reflexivity. Qed.
Lemma idecl_eq : forall f io, p_init_declarator P (S f) io =
  bind P (if io then p_declarator_kind P f true true else p_declarator P f) (fun d =>
  bind P (accept P K_EQUALS) (fun eq =>
  bind P (match eq with Some _ => p_initializer P f | None => ret P VNone end) (fun init =>
  ret P (mkDI P (Some d) init VNone)))).
Proof. reflexivity. Qed.
Lemma initializer_eq : forall f, p_initializer P (S f) =
  bind P (accept P K_LBRACE) (fun lb =>
    match lb with
    | Some lbt =>
      bind P (accept P K_RBRACE) (fun rb =>
      match rb with
      | Some _ => bind P (tcoord P lbt) (fun c => ret P (mkN P C_InitList [VList []] c))
      | None =>
        bind P (p_initializer_list P f) (fun il =>
        bind P (accept P K_COMMA) (fun _ =>
        bind P (expect P K_RBRACE) (fun _ =>
        ret P il)))
      end)
    | None => p_assignment_expression P f
    end).
Proof. reflexivity. Qed.

Definition InitOK (ki: list (kind * str)) (Xi: value unit) : Prop :=
  (ki = [] /\ Xi = VNone) \/
  (exists kvs, ki = (K_EQUALS, s2l "=") :: kvs /\ AsgS P kvs Xi /\ first_ok kvs).


Definition spec_of (ns: list node) : dspec P := mkSpec P [] [] ns [] [].
Definition td_of (x: str) (c: coord P) : node := mkTypeDecl P (VStr x) VNone VNone VNone (Some c).

(* a declarator is given by its name, the tokens of its initializer part and the tree of its initializer *)
Definition dl_toks (ds: list (str * list (kind * str) * value unit)) : list (kind * str) :=
  (fix go (l: list (str * list (kind * str) * value unit)) : list (kind * str) :=
     match l with
     | [] => []
     | [(x, ki, _)] => (K_ID, x) :: ki
     | (x, ki, _) :: r => (K_ID, x) :: ki ++ (K_COMMA, s2l ",") :: go r
     end) ds.
Definition DIs (infos: list (dinfo P)) (ds: list (str * list (kind * str) * value unit)) : Prop :=
  Forall2 (fun di d => exists c I, di = mkDI P (Some (td_of (fst (fst d)) c)) I VNone /\ strip I = snd d) infos ds.
Definition more_toks (ds: list (str * list (kind * str) * value unit)) : list (kind * str) :=
  concat (map (fun d => (K_COMMA, s2l ",") :: (K_ID, fst (fst d)) :: snd (fst d)) ds).

Lemma init_tr : forall pr ki Xi, InitOK ki Xi ->
  Tr P pr (fun f => bind P (accept P K_EQUALS) (fun eq => match eq with Some _ => p_initializer P f | None => ret P VNone end)) ki
    (fun k => astop k = true /\ kind_eqb k K_EQUALS = false) (fun I => strip I = Xi).
Proof.
  intros pr ki Xi [[-> ->]|(kvs & -> & HA & k & v & r & -> & _ & Hnb & _)].
  - tr_look Tr_accept_miss as ? ->; [exact (fun _ H => proj2 H)|]. apply Tr_ret. reflexivity.
  - tr_tok Tr_accept_hit as ? [? [-> _]]. eapply Tr_S; [apply initializer_eq|]. tr_look Tr_accept_miss as ? ->; [exact Hnb|].
    exact (Tr_mono _ _ _ _ _ _ _ _ _ (LevelS_Tr _ _ _ _ _ _ HA) (fun _ H => proj1 H) (fun _ H => H)).
Qed.

Lemma idecl_tr : forall pr x ki Xi, InitOK ki Xi ->
  Tr P pr (fun f => p_init_declarator P f false) ((K_ID, x) :: ki) (fun k => k = K_SEMI \/ k = K_COMMA)
    (fun di => exists c I, di = mkDI P (Some (td_of x c)) I VNone /\ strip I = Xi).
Proof.
  intros pr x ki Xi HI. eapply Tr_S; [intros f; apply idecl_eq|]. change ((K_ID, x) :: ki) with ([(K_ID, x)] ++ ki).
  tr_run (declarator_tr pr x) as ? [c ->]; [destruct HI as [[-> _]|(kvs & -> & _)]; [intros k [->| ->]|]; split; reflexivity|].
  apply Tr_assoc. tr_last (init_tr pr ki Xi HI) as I HI'; [intros k [->| ->]; split; reflexivity|]. apply Tr_ret. exists c, I. auto.
Qed.

Lemma idecl_run : forall ki Xi, InitOK ki Xi ->
  forall (s: pstate) x le (stop: tok) l, tk x = K_ID -> Spell le ki -> (tk stop = K_SEMI \/ tk stop = K_COMMA) -> Up s (x :: le ++ stop :: l) ->
  exists f0 c I s', (forall f, f0 <= f -> p_init_declarator P f false s = Ok (mkDI P (Some (td_of (tv x) c)) I VNone, s')) /\
    Up s' (stop :: l) /\ strip I = Xi /\ Ran P s s' (S (length le)).
Proof.
  intros ki Xi HI s x le stop l Hk HS Hstop HU.
  assert (HS': Spell (x :: le) ((K_ID, tv x) :: ki)) by (unfold RoundTrip.Spell in *; cbn [map]; rewrite Hk, HS; reflexivity).
  destruct (idecl_tr (anyst P) (tv x) ki Xi HI s (x :: le) stop l HS' HU Hstop I) as (f0 & ? & s' & H1 & H2 & (c & I & -> & H3) & H4).
  exists f0, c, I, s'. auto.
Qed.

Lemma idm_tr : forall pr ds, Forall (fun d => InitOK (snd (fst d)) (snd d)) ds ->
  Tr P pr (fun f => p_init_declarators_more P f false) (more_toks ds)
    (fun k => k = K_SEMI) (fun infos => DIs infos ds).
Proof.
  intros pr. induction ds as [|[[x ki] Xi] ds IH]; intros HF; (eapply Tr_S; [intros f; apply idm_eq|]).
  - tr_look Tr_accept_miss as ? ->; [intros k ->; reflexivity|]. apply Tr_ret. constructor.
  - inversion HF as [|a b Hd HF']; subst a b. cbn [more_toks map concat fst snd app]. tr_tok Tr_accept_hit as ? [cm [-> _]]. cbv iota.
    change ((K_ID, x) :: ki ++ ?r) with (((K_ID, x) :: ki) ++ r).
    tr_run (idecl_tr pr x ki Xi Hd) as di Hdi; [destruct ds as [|[[x2 ki2] X2] ds']; [intros k ->; left|right]; reflexivity|].
    eapply Tr_then; [exact (IH HF')|]. intros infos HD. apply Tr_ret. constructor; assumption.
Qed.

Lemma idm_run : forall ds, Forall (fun d => InitOK (snd (fst d)) (snd d)) ds ->
  forall (s: pstate) le (semi: tok) l,
  Spell le (concat (map (fun d => (K_COMMA, s2l ",") :: (K_ID, fst (fst d)) :: snd (fst d)) ds)) -> tk semi = K_SEMI -> Up s (le ++ semi :: l) ->
  exists f0 infos s', (forall f, f0 <= f -> p_init_declarators_more P f false s = Ok (infos, s')) /\ Up s' (semi :: l) /\ DIs infos ds /\ Ran P s s' (length le).
Proof. intros ds HF s le semi l HS Hsemi HU. exact (idm_tr (anyst P) ds HF s le semi l HS HU Hsemi I). Qed.

Lemma idl_tr : forall pr x ki Xi ds, InitOK ki Xi -> Forall (fun d => InitOK (snd (fst d)) (snd d)) ds ->
  Tr P pr (fun f => p_init_declarator_list P f None false)
    ((K_ID, x) :: ki ++ more_toks ds)
    (fun k => k = K_SEMI) (fun infos => DIs infos ((x, ki, Xi) :: ds)).
Proof.
  intros pr x ki Xi ds HI HF. eapply Tr_S; [intros f; apply idl_eq|]. change ((K_ID, x) :: ki ++ ?r) with (((K_ID, x) :: ki) ++ r).
  tr_run (idecl_tr pr x ki Xi HI) as di Hdi; [destruct ds as [|[[x2 ki2] X2] ds']; [intros k ->; left|right]; reflexivity|].
  eapply Tr_then; [exact (idm_tr pr ds HF)|]. intros infos HD. apply Tr_ret. constructor; assumption.
Qed.

Lemma idl_run : forall ki Xi, InitOK ki Xi ->
  forall (s: pstate) x le (semi: tok) l, tk x = K_ID -> Spell le ki -> tk semi = K_SEMI -> Up s (x :: le ++ semi :: l) ->
  exists f0 c I s', (forall f, f0 <= f -> p_init_declarator_list P f None false s =
                        Ok ([mkDI P (Some (mkTypeDecl P (VStr (tv x)) VNone VNone VNone (Some c))) I VNone], s')) /\
    Up s' (semi :: l) /\ strip I = Xi /\ Ran P s s' (S (length le)).
Proof.
  intros ki Xi HI s x le semi l Hk HS Hsemi HU.
  assert (HS': Spell (x :: le) ((K_ID, tv x) :: ki ++ [])) by (unfold RoundTrip.Spell in *; cbn [map]; rewrite Hk, HS, app_nil_r; reflexivity).
  destruct (idl_tr (anyst P) (tv x) ki Xi [] HI (Forall_nil _) s (x :: le) semi l HS' HU Hsemi I) as (f0 & infos & s' & H1 & H2 & HD & H4).
  inversion HD as [|di d infos' ds' (c & I & -> & H3) HD']. inversion HD'. subst. exists f0, c, I, s'. auto.
Qed.

(* _build_declarations: one Decl per declarator, the shared specifier applied to each, every name declared *)
Definition decl0 (x: str) (c: coord P) (I: node) : node :=
  mkN P C_Decl [VNone; VList []; VList []; VList []; VList []; td_of x c; I; VNone] (Some c).
Definition decl1 (x: str) (c: coord P) (I: node) (names: list node) (c0: coord P) : node :=
  VNode C_Decl [VStr x; VList []; VList []; VList []; VList [];
                VNode C_TypeDecl [VStr x; VList []; VNone; VNode C_IdentifierType [VList names] (Some c0)] (Some c); I; VNone] (Some c).

Lemma adjust_first_tds : forall ns x c I rest (s: pstate),
  adjust_first P (spec_of ns) (mkDI P (Some (td_of x c)) I VNone :: rest) s = Ok ((spec_of ns, mkDI P (Some (td_of x c)) I VNone :: rest), s).
Proof. reflexivity. Qed.

Lemma adjust_first_td : forall ns x c I (s: pstate),
  adjust_first P (spec_of ns) [mkDI P (Some (td_of x c)) I VNone] s = Ok ((spec_of ns, [mkDI P (Some (td_of x c)) I VNone]), s).
Proof. intros ns x c I s. exact (adjust_first_tds ns x c I [] s). Qed.

(* the Decl of x whose declarator is a chain ls of derivations above the TypeDecl of x, once name and type are in place *)
Definition chain_decl (ls: list (DeclProofs.link P)) (x: str) (c: coord P) (dc: option (coord P)) (I: node) (names: list node) (c0: coord P) : node :=
  VNode C_Decl [VStr x; VList []; VList []; VList []; VList [];
                DeclProofs.build P ls (VNode C_TypeDecl [VStr x; VList []; VNone; VNode C_IdentifierType [VList names] (Some c0)] (Some c)); I; VNone] dc.

Lemma fix_chain_decl : forall ls x c dc I ns v0 vs c0 (s: pstate), length ls + 1 < WF -> IdNodes P ns vs ->
  fix_decl_name_type P WF (mkN P C_Decl [VNone; VList []; VList []; VList []; VList []; DeclProofs.build P ls (td_of x c); I; VNone] dc)
    (mkIdType P [v0] (Some c0) :: ns) s = Ok (chain_decl ls x c dc I (map (fun v => VStr v) (v0 :: vs)) c0, s).
Proof.
  intros ls x c dc I ns v0 vs c0 s.
  exact (fix_chain P (fun nm t => VNode C_Decl [nm; VList []; VList []; VList []; VList []; t; I; VNone] dc) [] (fun _ _ => eq_refl) (fun _ _ => eq_refl)
           (fun _ _ _ => eq_refl) (fun _ _ _ => eq_refl) (fun _ _ => eq_refl) VNone ls (VStr x) VNone VNone VNone (Some c) ns v0 vs c0 WF s).
Qed.

Lemma fix_decl0 : forall x c I n0 ns v0 vs c0 (s: pstate), n0 = mkIdType P [v0] (Some c0) -> IdNodes P ns vs ->
  fix_decl_name_type P WF (decl0 x c I) (n0 :: ns) s = Ok (decl1 x c I (map (fun v => VStr v) (v0 :: vs)) c0, s).
Proof. intros x c I n0 ns v0 vs c0 s ->. exact (fix_chain_decl [] x c (Some c) I ns v0 vs c0 s (proj1 (Nat.ltb_lt 1 WF) eq_refl)). Qed.

Lemma fix_atomic_decl1 : forall x c I names c0 (s: pstate),
  fix_atomic_specifiers P WF (decl1 x c I names c0) s = Ok (decl1 x c I names c0, s).
Proof. reflexivity. Qed.

Lemma chain_plain : forall ls fs co, is_suE_or_idtype P (DeclProofs.build P ls (DeclProofs.typedecl P fs co)) = false.
Proof. intros [|[] ls] fs c; reflexivity. Qed.

(* one round of the loop of _build_declarations for such a declarator, under specifiers that are simple type names:
   the Decl gets the name and the type, and x is declared *)
Lemma build_one_chain : forall ls x c dc I ns v0 vs c0 (s: pstate) l, length ls + 1 < WF ->
  (forall s, coordA P (DeclProofs.build P ls (td_of x c)) s = Ok (dc, s)) ->
  (forall s, fix_atomic_specifiers P WF (chain_decl ls x c dc I (map (fun v => VStr v) (v0 :: vs)) c0) s =
             Ok (chain_decl ls x c dc I (map (fun v => VStr v) (v0 :: vs)) c0, s)) ->
  IdNodes P ns vs -> NoTD (scopes P s) -> Up s l ->
  exists s', build_one P (spec_of (mkIdType P [v0] (Some c0) :: ns)) false true (mkDI P (Some (DeclProofs.build P ls (td_of x c))) I VNone) s =
               Ok ((chain_decl ls x c dc I (map (fun v => VStr v) (v0 :: vs)) c0, spec_of (mkIdType P [v0] (Some c0) :: ns)), s') /\
             Up s' l /\ Same P s s' /\ NoTD (scopes P s').
Proof.
  intros ls x c dc I ns v0 vs c0 s l Hls Hco Hat Hns HN HU.
  destruct (add_identifier_notd s (Some x) dc l HN HU) as (s' & Hadd & H'). exists s'. split; [|exact H'].
  unfold build_one. cbn [d_decl d_init d_bitsize]. eapply bind_then; [apply Hco|].
  rewrite (chain_plain ls _ _ : is_suE_or_idtype P (DeclProofs.build P ls (td_of x c)) = false). set (dep := typedecl_depth P WF _).
  eapply bind_then; [exact (fix_chain_decl ls x c dc I ns v0 vs c0 s Hls Hns)|].
  eapply bind_then; [exact Hadd|]. eapply bind_then; [apply Hat|]. eapply bind_then; [reflexivity|]. eapply bind_then; [reflexivity|].
  destruct ns; [destruct dep|]; reflexivity.
Qed.

Lemma build_one_td : forall x c I n0 ns v0 vs c0 (s: pstate) l, n0 = mkIdType P [v0] (Some c0) -> IdNodes P ns vs ->
  NoTD (scopes P s) -> Up s l ->
  exists s', build_one P (spec_of (n0 :: ns)) false true (mkDI P (Some (td_of x c)) I VNone) s =
               Ok ((decl1 x c I (map (fun v => VStr v) (v0 :: vs)) c0, spec_of (n0 :: ns)), s') /\
             Up s' l /\ Same P s s' /\ NoTD (scopes P s').
Proof.
  intros x c I n0 ns v0 vs c0 s l ->.
  exact (build_one_chain [] x c (Some c) I ns v0 vs c0 s l (proj1 (Nat.ltb_lt 1 WF) eq_refl) (fun _ => eq_refl) (fix_atomic_decl1 x c I _ c0)).
Qed.

Definition Decls (Ns: list node) (ty: list (kind * str)) (ds: list (str * list (kind * str) * value unit)) : Prop :=
  Forall2 (fun N d => exists c I c0, N = decl1 (fst (fst d)) c I (map (fun v => VStr v) (map snd ty)) c0 /\ strip I = snd d) Ns ds.

Lemma build_loop_tds : forall infos ds, DIs infos ds ->
  forall k0 v0 ty' n0 ns c0 (s: pstate) l, n0 = mkIdType P [v0] (Some c0) -> IdNodes P ns (map snd ty') -> NoTD (scopes P s) -> Up s l ->
  exists Ns s', build_loop P (spec_of (n0 :: ns)) false true infos s = Ok ((Ns, spec_of (n0 :: ns)), s') /\
    Up s' l /\ Same P s s' /\ NoTD (scopes P s') /\ Decls Ns ((k0, v0) :: ty') ds.
Proof.
  intros infos ds H. induction H as [|di d infos ds [c [I [-> HI]]] _ IH]; intros k0 v0 ty' n0 ns c0 s l En0 Hns HN HU.
  - exists [], s. split; [reflexivity|split; [exact HU|split; [apply Same_refl|split; [exact HN|constructor]]]].
  - destruct (build_one_td (fst (fst d)) c I n0 ns v0 (map snd ty') c0 s l En0 Hns HN HU) as [s1 [H1 [HU1 [HS1 HN1]]]].
    destruct (IH k0 v0 ty' n0 ns c0 s1 l En0 Hns HN1 HU1) as [Ns [s2 [H2 [HU2 [HS2 [HN2 HD2]]]]]].
    exists (decl1 (fst (fst d)) c I (map (fun v => VStr v) (v0 :: map snd ty')) c0 :: Ns), s2.
    split; [|split; [exact HU2|split; [exact (Same_trans P _ _ _ HS1 HS2)|split; [exact HN2|]]]].
    + cbn [build_loop]. eapply bind_then; [exact H1|]. eapply bind_then; [exact H2|]. reflexivity.
    + constructor; [exists c, I, c0; split; [reflexivity|exact HI]|exact HD2].
Qed.

(* _build_declarations when the first declarator needs no adjustment and the loop hands the specifiers back as they were *)
Lemma build_decls_loop : forall spec ds Ns (s s': pstate),
  mem_str (s2l "typedef") (s_storage P spec) = false -> adjust_first P spec ds s = Ok ((spec, ds), s) ->
  build_loop P spec false true ds s = Ok ((Ns, spec), s') ->
  map (fun d : node => match set_attr P a_quals (vstrs P (s_qual P spec)) d with Some d' => d' | None => d end) Ns = Ns ->
  build_declarations P spec ds true s = Ok (Ns, s').
Proof.
  intros spec ds Ns s s' Ht Ha Hl Hq. unfold build_declarations. rewrite Ht. eapply bind_then; [exact Ha|]. eapply bind_then; [exact Hl|].
  cbn [fst snd]. rewrite Hq. reflexivity.
Qed.

Lemma build_decl_td : forall x c I n0 ns v0 vs c0 (s: pstate) l, n0 = mkIdType P [v0] (Some c0) -> IdNodes P ns vs ->
  NoTD (scopes P s) -> Up s l ->
  exists s', build_declarations P (spec_of (n0 :: ns)) [mkDI P (Some (td_of x c)) I VNone] true s =
               Ok ([decl1 x c I (map (fun v => VStr v) (v0 :: vs)) c0], s') /\
             Up s' l /\ Same P s s' /\ NoTD (scopes P s').
Proof.
  intros x c I n0 ns v0 vs c0 s l En0 Hns HN HU. destruct (build_one_td x c I n0 ns v0 vs c0 s l En0 Hns HN HU) as [s' [H1 H2]].
  exists s'. split; [|exact H2]. apply build_decls_loop; [reflexivity|apply adjust_first_td| |reflexivity].
  cbn [build_loop]. eapply bind_then; [exact H1|]. reflexivity.
Qed.

Lemma set_quals_decls : forall Ns ty ds, Decls Ns ty ds ->
  map (fun d : node => match set_attr P a_quals (vstrs P []) d with Some d' => d' | None => d end) Ns = Ns.
Proof. intros Ns ty ds H. induction H as [|N d Ns ds [c [I [c0 [-> _]]]] _ IH]; [reflexivity|]. cbn [map]. rewrite IH. reflexivity. Qed.


Lemma declaration_eq : forall f, p_declaration P (S f) =
  bind P (p_declaration_specifiers P f true) (fun r =>
    let '(spec, saw_type, _) := r in
    bind P (p_decl_body_with_spec P f spec saw_type) (fun ds =>
    bind P (expect P K_SEMI) (fun _ => ret P ds))).
Proof. reflexivity. Qed.
Lemma decl_body_eq : forall f spec saw_type, p_decl_body_with_spec P (S f) spec saw_type =
  bind P (starts_declarator P (negb saw_type)) (fun sd =>
  bind P (if sd then bind P (p_init_declarator_list P f None (negb saw_type)) (fun l => ret P (Some l)) else ret P None) (fun infos =>
    match infos with
    | None =>
      match s_type P spec with
      | [t0] =>
        if is_cls P C_Struct t0 || is_cls P C_Union t0 || is_cls P C_Enum t0 then
          bind P (coordA P t0) (fun tc =>
          ret P [mkN P C_Decl [VNone; quals_value P spec; VList (s_alignment P spec); vstrs P (s_storage P spec);
                           vstrs P (s_function P spec); t0; VNone; VNone] tc])
        else build_declarations P spec [mkDI P None VNone VNone] true
      | _ => build_declarations P spec [mkDI P None VNone VNone] true
      end
    | Some l => build_declarations P spec l true
    end)).
Proof. reflexivity. Qed.

Definition dtoks (ty: list (kind * str)) (x: str) (ki: list (kind * str)) : list (kind * str) :=
  ty ++ (K_ID, x) :: ki ++ [(K_SEMI, s2l ";")].
Definition dembed (ty: list (kind * str)) (x: str) (Xi: value unit) : value unit :=
  VNode C_Decl [VStr x; VList []; VList []; VList []; VList [];
                VNode C_TypeDecl [VStr x; VList []; VNone; VNode C_IdentifierType [VList (map (fun v => VStr v) (map snd ty))] None] None; Xi; VNone] None.

Definition dltoks (ty: list (kind * str)) (x: str) (ki: list (kind * str)) (ds: list (str * list (kind * str) * value unit)) : list (kind * str) :=
  ty ++ (K_ID, x) :: ki ++ concat (map (fun d => (K_COMMA, s2l ",") :: (K_ID, fst (fst d)) :: snd (fst d)) ds) ++ [(K_SEMI, s2l ";")].

(* a declaration starts from a scope stack without typedef names *)
Definition notd : stpre P := {| pre_of := fun s => NoTD (scopes P s); pre_ok := fun s s' H HSC => proj1 HSC H |}.

Lemma declspec_tr : forall pr k0 v0 ty', Forall (fun kv => kind_in (fst kv) tbl_TYPE_SPEC_SIMPLE = true) ((k0, v0) :: ty') ->
  Tr P pr (fun f => p_declaration_specifiers P f true) ((k0, v0) :: ty') (fun k => k = K_ID)
    (fun r => exists c0 ns fc, IdNodes P ns (map snd ty') /\ r = (spec_of (mkIdType P [v0] (Some c0) :: ns), true, fc)).
Proof.
  intros pr k0 v0 ty' HF. eapply Tr_S; [intros f; apply declspec_eq|].
  eapply Tr_then; [exact (spec_loop_tr P pr true K_ID id_stops_spec _ HF (st0 P))|].
  intros st' HQ. destruct (spec_from_st0 P _ _ _ HQ) as (c0 & ns & Hns & Hsp & Hsaw). rewrite Hsp, Hsaw. apply Tr_ret. exists c0, ns. eauto.
Qed.

Lemma starts_declarator_id : forall pr, Tr P pr (fun _ => starts_declarator P false) [] (fun k => k = K_ID) (fun r => r = true).
Proof.
  intros pr. unfold starts_declarator. tr_look (Tr_peek_kind P pr (fun k => k = K_ID)) as ? [k [-> ->]]; [exact (fun _ H => H)|].
  kred. apply Tr_ret. reflexivity.
Qed.

Lemma build_tr : forall infos x ki Xi ds k0 v0 ty' c0 ns nx, DIs infos ((x, ki, Xi) :: ds) -> IdNodes P ns (map snd ty') ->
  Tr P notd (fun _ => build_declarations P (spec_of (mkIdType P [v0] (Some c0) :: ns)) infos true) [] nx
    (fun Ns => Decls Ns ((k0, v0) :: ty') ((x, ki, Xi) :: ds)).
Proof.
  intros infos x ki Xi ds k0 v0 ty' c0 ns nx HD Hns s le t l0 HS HU _ HN. apply (RoundTrip.Spell_nil_inv P) in HS. subst le.
  destruct (build_loop_tds _ _ HD k0 v0 ty' _ ns c0 s _ eq_refl Hns HN HU) as (Ns & s' & H & HU' & HS' & _ & HDc).
  exists 0, Ns, s'. split; [intros f _|split; [exact HU'|split; [exact HDc|cost_tac]]].
  apply build_decls_loop; [reflexivity| |exact H|exact (set_quals_decls Ns _ _ HDc)].
  inversion HD as [|di d infos' ds' (c & I & -> & _) _]. apply adjust_first_tds.
Qed.

Lemma decl_body_tr : forall x ki Xi ds k0 v0 ty' c0 ns, InitOK ki Xi -> Forall (fun d => InitOK (snd (fst d)) (snd d)) ds -> IdNodes P ns (map snd ty') ->
  Tr P notd (fun f => p_decl_body_with_spec P f (spec_of (mkIdType P [v0] (Some c0) :: ns)) true)
    ((K_ID, x) :: ki ++ more_toks ds)
    (fun k => k = K_SEMI) (fun Ns => Decls Ns ((k0, v0) :: ty') ((x, ki, Xi) :: ds)).
Proof.
  intros x ki Xi ds k0 v0 ty' c0 ns HI HDs Hns. eapply Tr_S; [intros f; apply decl_body_eq|]. cbn [negb].
  tr_look (starts_declarator_id notd) as ? ->; [reflexivity|].
  eapply (Tr_then P notd _ _ _ _ _ _ (fun o => exists l, o = Some l /\ DIs l ((x, ki, Xi) :: ds)));
    [|intros ? (infos & -> & HD); exact (build_tr infos x ki Xi ds k0 v0 ty' c0 ns _ HD Hns)].
  eapply Tr_then; [exact (idl_tr notd x ki Xi ds HI HDs)|]. intros infos HD. apply Tr_ret. eauto.
Qed.

Lemma Decls_strip : forall Ns ty ds, Decls Ns ty ds -> map (@strip (coord P)) Ns = map (fun d => dembed ty (fst (fst d)) (snd d)) ds.
Proof.
  intros Ns ty ds H. induction H as [|N d Ns dd (c & I & c0 & -> & HI) _ IH]; [reflexivity|]. cbn [map]. rewrite IH. f_equal.
  unfold decl1, dembed. cbn [map strip snd]. rewrite (strip_strs P), HI. reflexivity.
Qed.

Lemma decl_list_tr : forall ty x ki Xi ds, ty <> [] -> Forall (fun kv => kind_in (fst kv) tbl_TYPE_SPEC_SIMPLE = true) ty -> InitOK ki Xi ->
  Forall (fun d => InitOK (snd (fst d)) (snd d)) ds ->
  Tr P notd (p_declaration P) (dltoks ty x ki ds) (fun _ => True)
    (fun Ns => map (@strip (coord P)) Ns = dembed ty x Xi :: map (fun d => dembed ty (fst (fst d)) (snd d)) ds).
Proof.
  intros ty x ki Xi ds Hne HF HI HDs. destruct ty as [|[k0 v0] ty']; [congruence|]. unfold dltoks. eapply Tr_S; [apply declaration_eq|].
  tr_run (declspec_tr notd k0 v0 ty' HF) as ? (c0 & ns & fc & Hns & ->); [reflexivity|]. cbv beta iota.
  rewrite app_assoc. change (?h :: ?a ++ ?b) with ((h :: a) ++ b).
  tr_run (decl_body_tr x ki Xi ds k0 v0 ty' c0 ns HI HDs Hns) as Ns HD; [reflexivity|]. tr_tok Tr_expect as ? _. apply Tr_ret.
  exact (Decls_strip _ _ _ HD).
Qed.

(* `T x1 [= e1] , x2 [= e2] , ... ;` : one Decl per declarator, in order, each with the type T spells *)
Theorem decl_list_run : forall ty x ki Xi ds, ty <> [] -> Forall (fun kv => kind_in (fst kv) tbl_TYPE_SPEC_SIMPLE = true) ty -> InitOK ki Xi ->
  Forall (fun d => InitOK (snd (fst d)) (snd d)) ds ->
  forall (s: pstate) le (stop: tok) l0, Spell le (dltoks ty x ki ds) -> Up s (le ++ stop :: l0) -> NoTD (scopes P s) ->
  exists f0 Ns s', (forall f, f0 <= f -> p_declaration P f s = Ok (Ns, s')) /\ Up s' (stop :: l0) /\
    map (@strip (coord P)) Ns = dembed ty x Xi :: map (fun d => dembed ty (fst (fst d)) (snd d)) ds /\ Ran P s s' (length le).
Proof. intros ty x ki Xi ds Hne HF HI HDs s le stop l0 HS HU HN. exact (decl_list_tr ty x ki Xi ds Hne HF HI HDs s le stop l0 HS HU I HN). Qed.

Lemma decl_run : forall ty x ki Xi, ty <> [] -> Forall (fun kv => kind_in (fst kv) tbl_TYPE_SPEC_SIMPLE = true) ty -> InitOK ki Xi ->
  forall (s: pstate) le (stop: tok) l0, Spell le (dtoks ty x ki) -> Up s (le ++ stop :: l0) -> NoTD (scopes P s) ->
  exists f0 Ns s', (forall f, f0 <= f -> p_declaration P f s = Ok (Ns, s')) /\ Up s' (stop :: l0) /\
    map (@strip (coord P)) Ns = [dembed ty x Xi] /\ Ran P s s' (length le).
Proof. intros ty x ki Xi Hne HF HI. exact (decl_list_run ty x ki Xi [] Hne HF HI (Forall_nil _)). Qed.

End DT.
