(* C07 / C02: the parenthesisation rule of CGenerator.visit_BinaryOp is sound for the stratified
   grammar.  With reduce_parentheses=True a left operand that is a BinaryOp of precedence >= the
   parent's and a right operand that is a BinaryOp of precedence > the parent's are printed without
   parentheses; every other non-atomic operand is parenthesised (and is then an atom for the parser).
   Theorem: the flat operator/operand sequence that results derives, in the stratified grammar,
   exactly the tree it was printed from -- for every tree.  With ClimbProofs.D_unique and the
   parser refinement (BinaryRefine.v) the parser therefore rebuilds the same tree.
   With reduce_parentheses=False (the default) every BinaryOp operand is parenthesised: the instance
   keep = (fun _ _ => false). *)
From Coq Require Import List Arith Lia Bool.
Import ListNotations.
From PV Require Import ClimbProofs.

Section GP.
Variable base op : Type.
Variable prec : op -> nat.

Inductive gt := GLeaf (a: base) | GBin (o: op) (l r: gt).

Variable rp : bool.   (* reduce_parentheses *)

(* the two lambdas of visit_BinaryOp: is the operand printed WITHOUT parentheses although it is a BinaryOp? *)
Definition keepL (o: op) (d: gt) : bool :=
  match d with GBin od _ _ => rp && (prec o <=? prec od) | GLeaf _ => false end.
Definition keepR (o: op) (d: gt) : bool :=
  match d with GBin od _ _ => rp && (prec o <? prec od) | GLeaf _ => false end.

(* what the parser sees: atoms are leaves and parenthesised subtrees *)
Fixpoint flatten (t: gt) : gt * list (op * gt) :=
  match t with
  | GLeaf a => (t, [])
  | GBin o l r =>
    let (hl, ll) := if keepL o l then flatten l else (l, []) in
    let (hr, lr) := if keepR o r then flatten r else (r, []) in
    (hl, ll ++ (o, hr) :: lr)
  end.

Fixpoint skel (t: gt) : tree gt op :=
  match t with
  | GLeaf a => Leaf gt op t
  | GBin o l r => Bin gt op o (if keepL o l then skel l else Leaf gt op l) (if keepR o r then skel r else Leaf gt op r)
  end.

Definition top_prec (t: gt) : nat := match t with GBin o _ _ => prec o | GLeaf _ => 0 end.

Notation D := (D gt op prec).

Lemma operand_derives : forall p d (k: bool), (k = true -> p <= top_prec d) ->
  D (top_prec d) (Leaf gt op (fst (flatten d))) (snd (flatten d)) (skel d) ->
  D p (Leaf gt op (fst (if k then flatten d else (d, [])))) (snd (if k then flatten d else (d, []))) (if k then skel d else Leaf gt op d).
Proof. intros p d [|] Hp H; [eapply D_down; [exact H|apply Hp; reflexivity]|constructor]. Qed.

Lemma keepL_prec : forall o d, keepL o d = true -> prec o <= top_prec d.
Proof. intros o [a|od l r] H; [discriminate|]. apply andb_true_iff in H. apply Nat.leb_le, H. Qed.
Lemma keepR_prec : forall o d, keepR o d = true -> S (prec o) <= top_prec d.
Proof. intros o [a|od l r] H; [discriminate|]. apply andb_true_iff in H. apply Nat.ltb_lt, H. Qed.

Theorem flatten_derives : forall t, D (top_prec t) (Leaf gt op (fst (flatten t))) (snd (flatten t)) (skel t).
Proof.
  induction t as [a|o l IHl r IHr]; cbn [flatten skel top_prec]; [constructor|].
  pose proof (operand_derives (prec o) l (keepL o l) (keepL_prec o l) IHl) as HL.
  pose proof (operand_derives (S (prec o)) r (keepR o r) (keepR_prec o r) IHr) as HR.
  destruct (if keepL o l then flatten l else (l, [])) as [hl ll].
  destruct (if keepR o r then flatten r else (r, [])) as [hr lr].
  apply D_bin; [reflexivity|exact HL|exact HR].
Qed.

(* at the entry level of _parse_binary_expression, and unique *)
Theorem generated_sequence_has_exactly_its_tree : forall t T,
  D 0 (Leaf gt op (fst (flatten t))) (snd (flatten t)) T <-> T = skel t.
Proof.
  intros t T. split.
  - intros H. eapply (D_unique gt op prec); [exact H|]. eapply D_down; [apply flatten_derives|lia].
  - intros ->. eapply D_down; [apply flatten_derives|lia].
Qed.
End GP.
