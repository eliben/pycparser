(* C05 core: the loop of fix_switch_cases (switch_regroup) returns [regroup_spec] of the switch body, the intended
   grouping written as a function - for bodies of any length and label chains of any depth.
   That [regroup_spec] itself loses, duplicates or reorders nothing is read off its definition; it is not a theorem here. *)
From Coq Require Import List NArith Bool Arith Lia.
Import ListNotations.
From PV Require Import Regex Base LexTables ParserTables AstDefs AstSpec AstImpl PyRepr NodeModel ParserBase.
Open Scope nat_scope.

Section SP.
Variable P : Type.
Notation node := (node P).
Notation coord := (coord P).

Inductive lab := LCase (e: node) (co: option coord) | LDef (co: option coord).
Definition mk (l: lab) (stmts: list node) : node :=
  match l with
  | LCase e co => VNode C_Case [e; VList stmts] co
  | LDef co => VNode C_Default [VList stmts] co
  end.

Lemma mk_is_case : forall l st, is_case P (mk l st) = true.
Proof. destruct l; reflexivity. Qed.
Lemma get_stmts_mk : forall l st, get_attr P a_stmts (mk l st) = Some (VList st).
Proof. destruct l; reflexivity. Qed.
Lemma set_stmts_mk : forall l st st', set_attr P a_stmts (VList st') (mk l st) = Some (mk l st').
Proof. destruct l; reflexivity. Qed.

(* what the parser produces for `l1: l2: ... ln: s` : each label holds exactly the next one *)
Fixpoint nest (labs: list lab) (s: node) : node :=
  match labs with
  | [] => s
  | l :: r => mk l [nest r s]
  end.

(* the labels of a chain as siblings: all empty but the last, which holds the statement *)
Fixpoint siblings (labs: list lab) (s: node) : list node :=
  match labs with
  | [] => []
  | [l] => [mk l [s]]
  | l :: r => mk l [] :: siblings r s
  end.

Lemma last_opt_app : forall {A} (a: list A) x, last_opt (a ++ [x]) = Some x.
Proof. induction a as [|y a IH]; intros x; [reflexivity|]. cbn. destruct (a ++ [x]) eqn:E; [destruct a; discriminate|]. rewrite <- E. apply IH. Qed.
Lemma drop_last_app : forall {A} (a: list A) x, drop_last (a ++ [x]) = a.
Proof. induction a as [|y a IH]; intros x; [reflexivity|]. cbn. destruct (a ++ [x]) eqn:E; [destruct a; discriminate|]. rewrite <- E. f_equal. apply IH. Qed.

Fixpoint lastlab (l: lab) (labs: list lab) : lab := match labs with [] => l | x :: r => lastlab x r end.
Fixpoint initlabs (l: lab) (labs: list lab) : list lab := match labs with [] => [] | x :: r => l :: initlabs x r end.

(* _extract_nested_case on a label chain ending in a non-label statement *)
Lemma extract_nested_chain : forall labs l s fuel st, is_case P s = false -> length labs < fuel ->
  extract_nested P fuel (nest (l :: labs) s) st = Ok (siblings (l :: labs) s, st).
Proof.
  induction labs as [|l2 labs IH]; intros l s fuel st Hs Hlen; (destruct fuel as [|f]; [cbn in Hlen; lia|]).
  - cbn [nest extract_nested]. unfold bind, getA, lift_opt. rewrite get_stmts_mk. cbn [ret]. rewrite Hs. reflexivity.
  - cbn [nest]. cbn [extract_nested]. unfold bind, getA, lift_opt. rewrite get_stmts_mk. cbn [ret].
    change (mk l2 [nest labs s]) with (nest (l2 :: labs) s).
    assert (Hc: is_case P (nest (l2 :: labs) s) = true) by (cbn [nest]; apply mk_is_case).
    rewrite Hc. cbn [last_opt drop_last]. unfold setA, lift_opt. rewrite set_stmts_mk. cbn [ret].
    rewrite Hc. rewrite IH; [|exact Hs|cbn in Hlen; lia].
    cbn [siblings]. destruct labs; reflexivity.
Qed.

(* children of the switch body as the parser delivers them *)
Inductive child := CLabels (l: lab) (labs: list lab) (s: node) | CPlain (s: node).
Definition child_node (c: child) : node :=
  match c with CLabels l labs s => nest (l :: labs) s | CPlain s => s end.
Definition child_ok (c: child) : Prop :=
  match c with CLabels _ _ s => is_case P s = false | CPlain s => is_case P s = false end.
Definition child_depth (c: child) : nat := match c with CLabels _ labs _ => length labs | CPlain _ => 0 end.

(* the intended grouping: statements go under the nearest preceding label, consecutive labels are
   siblings, statements before the first label stay in front *)
Fixpoint regroup_spec (cs: list child) (items: list node) (cur: option (lab * list node)) : list node :=
  (* items: finished part; cur: the open label with the statements collected so far *)
  let close := match cur with Some (l, st) => items ++ [mk l st] | None => items end in
  match cs with
  | [] => close
  | CPlain s :: r =>
    match cur with
    | Some (l, st) => regroup_spec r items (Some (l, st ++ [s]))
    | None => regroup_spec r (items ++ [s]) None
    end
  | CLabels l labs s :: r =>
    regroup_spec r (close ++ map (fun x => mk x []) (initlabs l labs)) (Some (lastlab l labs, [s]))
  end.

Lemma siblings_split : forall labs l s,
  siblings (l :: labs) s = map (fun x => mk x []) (initlabs l labs) ++ [mk (lastlab l labs) [s]].
Proof.
  induction labs as [|l2 labs IH]; intros l s; [reflexivity|].
  change (siblings (l :: l2 :: labs) s) with (mk l [] :: siblings (l2 :: labs) s).
  rewrite IH. reflexivity.
Qed.

Definition state_of (items: list node) (cur: option (lab * list node)) : list node * bool :=
  match cur with Some (l, st) => (items ++ [mk l st], true) | None => (items, false) end.

Theorem switch_regroup_correct : forall cs items cur fuel st,
  Forall child_ok cs -> Forall (fun c => child_depth c < fuel) cs ->
  switch_regroup P fuel (map child_node cs) (fst (state_of items cur)) (snd (state_of items cur)) st
  = Ok (regroup_spec cs items cur, st).
Proof.
  induction cs as [|c cs IH]; intros items cur fuel st Hok Hd.
  - cbn. destruct cur as [[l s0]|]; reflexivity.
  - inversion Hok as [|? ? Hc Hr]; subst. inversion Hd as [|? ? Hdc Hdr]; subst.
    destruct c as [l labs s|s]; cbn [map child_node].
    + cbn [switch_regroup]. assert (Hcase: is_case P (nest (l :: labs) s) = true) by (cbn [nest]; apply mk_is_case).
      rewrite Hcase. unfold bind. rewrite extract_nested_chain; [|exact Hc|exact Hdc].
      rewrite siblings_split. cbn [regroup_spec].
      specialize (IH (fst (state_of items cur) ++ map (fun x => mk x []) (initlabs l labs))
                     (Some (lastlab l labs, [s])) fuel st Hr Hdr).
      cbn [state_of fst snd] in IH.
      destruct cur as [[l0 s0]|]; cbn [state_of fst snd] in *; rewrite ?app_assoc in *; exact IH.
    + cbn in Hc. cbn [switch_regroup]. rewrite Hc.
      destruct cur as [[l0 s0]|]; cbn [state_of fst snd regroup_spec].
      * rewrite last_opt_app. unfold bind, getA, lift_opt. rewrite get_stmts_mk. cbn [ret vlist_append].
        unfold setA, lift_opt. rewrite set_stmts_mk. cbn [ret]. rewrite drop_last_app.
        apply (IH items (Some (l0, s0 ++ [s])) fuel st Hr Hdr).
      * apply (IH (items ++ [s]) None fuel st Hr Hdr).
Qed.

(* the flattenings of a child and of a regrouped item in source order (no theorem is stated about them) *)
Fixpoint flat_child (c: child) : list node :=
  match c with CLabels l labs s => map (fun x => mk x []) (l :: labs) ++ [s] | CPlain s => [s] end.
Definition flat_item (heads: node -> option (node * list node)) (n: node) : list node :=
  match heads n with Some (h, st) => h :: st | None => [n] end.
End SP.
