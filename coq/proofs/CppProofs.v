From Coq Require Import List NArith Bool.
Import ListNotations.
From PV Require Import Regex Base CppArgs.

Theorem path_list_shape : forall cpp args file,
  exists mid, path_list cpp args file = cpp :: mid ++ [file]
              /\ mid = match args with ArgList l => l | ArgStr [] => [] | ArgStr s => [s] end.
Proof. intros. eexists. split; reflexivity. Qed.

Theorem str_equals_singleton_list : forall cpp s file, s <> [] ->
  path_list cpp (ArgStr s) file = path_list cpp (ArgList [s]) file.
Proof. intros cpp s file H. destruct s; [congruence|reflexivity]. Qed.

(* parse_file with use_cpp is exactly: preprocess by hand, then parse the text under the same file name *)
Theorem parse_file_is_manual_pipeline : forall (Text Ast: Type) run_cpp read_file (parse: Text -> str -> Ast) file cpp args,
  parse_file Text Ast run_cpp read_file parse file true cpp args
  = parse (preprocess_file Text run_cpp file cpp args) file.
Proof. reflexivity. Qed.

Theorem parse_file_without_cpp : forall (Text Ast: Type) run_cpp read_file (parse: Text -> str -> Ast) file cpp args,
  parse_file Text Ast run_cpp read_file parse file false cpp args = parse (read_file file) file.
Proof. reflexivity. Qed.
