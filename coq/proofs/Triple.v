(* Runs of the parser model over a token sequence, and how they compose.
   [Tr pr run kvs nx Q] says: from every state that satisfies pr and will see tokens spelled kvs followed by a token whose
   kind satisfies nx, [run] returns (for all large fuel) a value satisfying Q, has consumed exactly those tokens and stands in
   front of the following one, at the cost [Ran] allows.  The level statements of the forward theorems (RoundTripGen.LevelS,
   StmtTrip.StmtL, ...) are instances.  [Tr_bind] is the sequencing rule: it splits the token sequence, works out which token
   follows the first part, threads [Up] and adds up the cost, once and for all. *)
From Coq Require Import List NArith Bool Arith Lia.
Import ListNotations.
From PV Require Import Regex Base LexTables ParserTables AstDefs AstSpec AstImpl PyRepr NodeModel ParserBase ParserDecl ParserMain TableProofs StreamLib RoundTrip.
Open Scope nat_scope.

(* what a run may assume of the state it starts in: a predicate that survives every step the library takes *)
Record stpre (P: Type) := { pre_of :> pstate P -> Prop; pre_ok : forall s s', pre_of s -> SC P s s' -> pre_of s' }.
Definition anyst (P: Type) : stpre P := {| pre_of := fun _ => True; pre_ok := fun _ _ _ _ => I |}.

Section TR.
Variable P : Type.
Variable pr : stpre P.
Notation pstate := (ParserBase.pstate P).
Notation tok := (ParserBase.tok P).
Notation Up := (StreamLib.Up P).
Notation Spell := (RoundTrip.Spell P).

Definition Tr {A} (run: nat -> M P A) (kvs: list (kind * str)) (nx: kind -> Prop) (Q: A -> Prop) : Prop :=
  forall (s: pstate) le (t: tok) l0, Spell le kvs -> Up s (le ++ t :: l0) -> nx (tk t) -> pr s ->
  Ev run s (fun a s' => Up s' (t :: l0) /\ Q a /\ Ran P s s' (length le)).

(* [nexts k2 n2 n1]: n1, what the first of two runs assumes of the token after its own, holds of that token: of the first
   token of the second run's k2, or, if k2 is empty, of the token after both, of which n2 is known *)
Definition nexts (k2: list (kind * str)) (n2 n1: kind -> Prop) : Prop :=
  match k2 with (k, _) :: _ => n1 k | [] => forall k, n2 k -> n1 k end.

Lemma Tr_bind : forall A B (m: nat -> M P A) (g: nat -> A -> M P B) k1 k2 n1 n2 (Q1: A -> Prop) (Q2: B -> Prop),
  Tr m k1 n1 Q1 -> nexts k2 n2 n1 -> (forall a, Q1 a -> Tr (fun f => g f a) k2 n2 Q2) ->
  Tr (fun f => bind P (m f) (g f)) (k1 ++ k2) n2 Q2.
Proof.
  intros A B m g k1 k2 n1 n2 Q1 Q2 H1 Hn H2 s le t l0 HS HU Hnx Hpre.
  destruct (Spell_app_inv P _ _ _ HS) as [l1 [l2 [-> [HS1 HS2]]]]. rewrite <- app_assoc in HU.
  assert (Hx: exists x r, l2 ++ t :: l0 = x :: r /\ n1 (tk x)).
  { unfold RoundTrip.Spell in HS2. destruct l2 as [|x l2']; cbn in HS2; subst k2.
    - exists t, l0. split; [reflexivity|exact (Hn _ Hnx)].
    - exists x, (l2' ++ t :: l0). split; [reflexivity|exact Hn]. }
  destruct Hx as [x [r [Ex Hx]]]. rewrite Ex in HU. apply Ev_bind.
  apply (Ev_mono _ _ _ _ _ _ (H1 s l1 x r HS1 HU Hx Hpre)). intros a s1 (HU1 & HQ1 & HR1). rewrite <- Ex in HU1.
  assert (Hpre1: pr s1) by (apply (pre_ok P pr s s1 Hpre); apply HR1).
  apply (Ev_mono _ _ _ _ _ _ (H2 a HQ1 s1 l2 t l0 HS2 HU1 Hnx Hpre1)). intros b s2 (HU2 & HQ2 & HR2).
  split; [exact HU2|split; [exact HQ2|]]. rewrite app_length. cost_tac.
Qed.

Lemma nexts_True : forall k2 n2, nexts k2 n2 (fun _ => True).
Proof. intros [|[k v] r] n2; cbn; auto. Qed.

Lemma Tr_cons : forall A B (m: M P A) (g: nat -> A -> M P B) kv k2 n2 (Q1: A -> Prop) (Q2: B -> Prop),
  Tr (fun _ => m) [kv] (fun _ => True) Q1 -> (forall a, Q1 a -> Tr (fun f => g f a) k2 n2 Q2) ->
  Tr (fun f => bind P m (g f)) (kv :: k2) n2 Q2.
Proof. intros A B m g kv k2 n2 Q1 Q2 H1 H2. exact (Tr_bind A B (fun _ => m) g [kv] k2 _ n2 Q1 Q2 H1 (nexts_True _ _) H2). Qed.

Lemma Tr_last : forall A B (m: nat -> M P A) (g: nat -> A -> M P B) k1 (n1 n2: kind -> Prop) (Q1: A -> Prop) (Q2: B -> Prop),
  Tr m k1 n1 Q1 -> (forall k, n2 k -> n1 k) -> (forall a, Q1 a -> Tr (fun f => g f a) [] n2 Q2) ->
  Tr (fun f => bind P (m f) (g f)) k1 n2 Q2.
Proof. intros A B m g k1 n1 n2 Q1 Q2 H1 Hn H2. rewrite <- (app_nil_r k1). exact (Tr_bind A B m g k1 [] n1 n2 Q1 Q2 H1 Hn H2). Qed.
Lemma Tr_then : forall A B (m: nat -> M P A) (g: nat -> A -> M P B) k1 n (Q1: A -> Prop) (Q2: B -> Prop),
  Tr m k1 n Q1 -> (forall a, Q1 a -> Tr (fun f => g f a) [] n Q2) -> Tr (fun f => bind P (m f) (g f)) k1 n Q2.
Proof. intros A B m g k1 n Q1 Q2 H1 H2. exact (Tr_last A B m g k1 n n Q1 Q2 H1 (fun _ H => H) H2). Qed.

Lemma Tr_first : forall A B (m: nat -> M P A) (g: nat -> A -> M P B) k2 n1 n2 (Q1: A -> Prop) (Q2: B -> Prop),
  Tr m [] n1 Q1 -> nexts k2 n2 n1 -> (forall a, Q1 a -> Tr (fun f => g f a) k2 n2 Q2) ->
  Tr (fun f => bind P (m f) (g f)) k2 n2 Q2.
Proof. intros A B m g k2 n1 n2 Q1 Q2 H1 Hn H2. exact (Tr_bind A B m g [] k2 n1 n2 Q1 Q2 H1 Hn H2). Qed.

(* a first step that computes a and leaves the state alone; [Tr_val]: such a step as the whole run *)
Lemma Tr_eval : forall A B (m: M P A) (g: nat -> A -> M P B) a kvs nx (Q: B -> Prop),
  (forall s, m s = Ok (a, s)) -> Tr (fun f => g f a) kvs nx Q -> Tr (fun f => bind P m (g f)) kvs nx Q.
Proof. intros A B m g a kvs nx Q E H s le t l0 HS HU Hn Hp. exact (Ev_step P _ _ _ _ _ _ _ _ (E s) (H s le t l0 HS HU Hn Hp)). Qed.

Lemma Tr_assoc : forall A B C (m: nat -> M P A) (g: nat -> A -> M P B) (h: nat -> B -> M P C) kvs nx (Q: C -> Prop),
  Tr (fun f => bind P (bind P (m f) (g f)) (h f)) kvs nx Q -> Tr (fun f => bind P (m f) (fun a => bind P (g f a) (h f))) kvs nx Q.
Proof. intros A B C m g h kvs nx Q H s le t l0 HS HU Hn Hp. apply Ev_assoc. exact (H s le t l0 HS HU Hn Hp). Qed.

Lemma Tr_S : forall A (run body: nat -> M P A) kvs nx (Q: A -> Prop), (forall f, run (S f) = body f) -> Tr body kvs nx Q -> Tr run kvs nx Q.
Proof. intros A run body kvs nx Q E H s le t l0 HS HU Hn Hp. exact (Ev_S _ _ _ _ _ _ E (H s le t l0 HS HU Hn Hp)). Qed.

Lemma Tr_mono : forall A (run: nat -> M P A) kvs (nx nx': kind -> Prop) (Q Q': A -> Prop),
  Tr run kvs nx Q -> (forall k, nx' k -> nx k) -> (forall a, Q a -> Q' a) -> Tr run kvs nx' Q'.
Proof.
  intros A run kvs nx nx' Q Q' H Hn HQ s le t l0 HS HU Hnx Hp. apply (Ev_mono _ _ _ _ _ _ (H s le t l0 HS HU (Hn _ Hnx) Hp)).
  intros a s' (H1 & H2 & H3). split; [exact H1|split; [exact (HQ _ H2)|exact H3]].
Qed.

Lemma Tr_prim : forall A (m: M P A) kvs (nx: kind -> Prop) (Q: A -> Prop),
  (forall (s: pstate) le (t: tok) l0, Spell le kvs -> Up s (le ++ t :: l0) -> nx (tk t) ->
     exists a s', m s = Ok (a, s') /\ Up s' (t :: l0) /\ Q a /\ Ran P s s' (length le)) ->
  Tr (fun _ => m) kvs nx Q.
Proof.
  intros A m kvs nx Q H s le t l0 HS HU Hn _. destruct (H s le t l0 HS HU Hn) as [a [s' [E HQ]]].
  exists 0, a, s'. split; [intros; exact E|exact HQ].
Qed.

Lemma Tr_pure : forall A (m: M P A) nx (Q: A -> Prop), (forall s, exists a, m s = Ok (a, s) /\ Q a) -> Tr (fun _ => m) [] nx Q.
Proof.
  intros A m nx Q H. apply Tr_prim. intros s le t l0 HS HU _. apply (Spell_nil_inv P) in HS. subst le.
  destruct (H s) as [a [E HQ]]. exists a, s. split; [exact E|split; [exact HU|split; [exact HQ|cost_tac]]].
Qed.
Lemma Tr_ret : forall A (a: A) nx (Q: A -> Prop), Q a -> Tr (fun _ => ret P a) [] nx Q.
Proof. intros A a nx Q H. apply Tr_pure. intros s. exists a. split; [reflexivity|exact H]. Qed.
Lemma Tr_tcoord : forall (x: tok) nx, Tr (fun _ => tcoord P x) [] nx (fun _ => True).
Proof. intros x nx. apply Tr_pure. intros s. eexists. split; [reflexivity|exact I]. Qed.
Lemma Tr_val : forall A (m: M P A) a nx (Q: A -> Prop), (forall s, m s = Ok (a, s)) -> Q a -> Tr (fun _ => m) [] nx Q.
Proof. intros A m a nx Q E H. apply Tr_pure. intros s. exists a. split; [apply E|exact H]. Qed.
Lemma Tr_mark : forall nx, Tr (fun _ => mark P) [] nx (fun _ => True).
Proof. intros nx. apply Tr_pure. intros s. eexists. split; [reflexivity|exact I]. Qed.
Lemma Tr_tcoord_some : forall (x: tok) nx, Tr (fun _ => tcoord P x) [] nx (fun r => exists c, r = Some c).
Proof. intros x nx. apply Tr_pure. intros s. eexists. split; [reflexivity|eexists; reflexivity]. Qed.
(* the end of most productions: the node, at the coordinate of its first token *)
Lemma Tr_mkN : forall (t: tok) c fs nx X, VNode c (map strip fs) None = X ->
  Tr (fun _ => bind P (tcoord P t) (fun co => ret P (mkN P c fs co))) [] nx (fun N => strip N = X).
Proof.
  intros t c fs nx X E. apply (Tr_first _ _ _ (fun _ => _) [] nx nx _ _ (Tr_tcoord t nx) (fun _ H => H)). intros co _. apply Tr_ret. exact E.
Qed.
Lemma Tr_tok_coord : forall (x: tok) nx, Tr (fun _ => tok_coord P x) [] nx (fun _ => True).
Proof. intros x nx. apply Tr_pure. intros s. eexists. split; [reflexivity|exact I]. Qed.
Lemma Tr_coordA : forall (e: node P) c fs co nx, strip e = VNode c fs co -> Tr (fun _ => coordA P e) [] nx (fun _ => True).
Proof. intros e c fs co nx H. destruct (strip_node_inv _ _ _ _ _ H) as [fs' [co' ->]]. apply Tr_pure. intros s. eexists. split; [reflexivity|exact I]. Qed.

Lemma Spell_one : forall le k v, Spell le [(k, v)] -> exists x, le = [x] /\ tk x = k /\ tv x = v.
Proof.
  intros le k v HS. destruct (Spell_cons_inv P _ _ _ _ HS) as [x [l2 [-> [Hk [Hv HS2]]]]]. apply (Spell_nil_inv P) in HS2. subst l2.
  exists x. split; [reflexivity|split; assumption].
Qed.

Lemma Tr_advance : forall k v, Tr (fun _ => advance P) [(k, v)] (fun _ => True) (fun x => tk x = k /\ tv x = v).
Proof.
  intros k v. apply Tr_prim. intros s le t l0 HS HU _. destruct (Spell_one _ _ _ HS) as [x [-> [Hk Hv]]].
  destruct (advance_up P s x _ HU) as [s2 [H [HU2 HA]]]. exists x, s2. split; [exact H|split; [exact HU2|split; [split; assumption|cost_tac]]].
Qed.
Lemma Tr_expect : forall k v, Tr (fun _ => expect P k) [(k, v)] (fun _ => True) (fun x => tk x = k /\ tv x = v).
Proof.
  intros k v. apply Tr_prim. intros s le t l0 HS HU _. destruct (Spell_one _ _ _ HS) as [x [-> [Hk Hv]]].
  assert (Hkk: kind_eqb (tk x) k = true) by (rewrite Hk; apply N.eqb_refl).
  destruct (expect_up P s x _ k HU Hkk) as [s2 [H [HU2 HA]]]. exists x, s2. split; [exact H|split; [exact HU2|split; [split; assumption|cost_tac]]].
Qed.
Lemma Tr_accept_hit : forall k v, Tr (fun _ => accept P k) [(k, v)] (fun _ => True) (fun r => exists x, r = Some x /\ tk x = k /\ tv x = v).
Proof.
  intros k v. apply Tr_prim. intros s le t l0 HS HU _. destruct (Spell_one _ _ _ HS) as [x [-> [Hk Hv]]].
  assert (Hkk: kind_eqb (tk x) k = true) by (rewrite Hk; apply N.eqb_refl).
  destruct (accept_hit P s x _ k HU Hkk) as [s2 [H [HU2 HA]]]. exists (Some x), s2.
  split; [exact H|split; [exact HU2|split; [exists x; split; [reflexivity|split; assumption]|cost_tac]]].
Qed.
Lemma Tr_accept_miss : forall k, Tr (fun _ => accept P k) [] (fun k' => kind_eqb k' k = false) (fun r => r = None).
Proof.
  intros k. apply Tr_prim. intros s le t l0 HS HU Hn. apply (Spell_nil_inv P) in HS. subst le.
  destruct (accept_miss P s t l0 k HU Hn) as [s1 [H [HU1 HS1]]]. exists None, s1. split; [exact H|split; [exact HU1|split; [reflexivity|cost_tac]]].
Qed.
Lemma Tr_peek : forall nx: kind -> Prop, Tr (fun _ => peek P) [] nx (fun r => exists x, r = Some x /\ nx (tk x)).
Proof.
  intros nx. apply Tr_prim. intros s le t l0 HS HU Hn. apply (Spell_nil_inv P) in HS. subst le.
  destruct (peek_up P s t l0 HU) as [s1 [H [HU1 HS1]]]. exists (Some t), s1. split; [exact H|split; [exact HU1|split; [exists t; auto|cost_tac]]].
Qed.
Lemma Tr_peek_kind : forall nx: kind -> Prop, Tr (fun _ => peek_kind P) [] nx (fun r => exists k, r = Some k /\ nx k).
Proof.
  intros nx. apply Tr_prim. intros s le t l0 HS HU Hn. apply (Spell_nil_inv P) in HS. subst le.
  destruct (peek_kind_up P s t l0 HU) as [s1 [H [HU1 HS1]]]. exists (Some (tk t)), s1. split; [exact H|split; [exact HU1|split; [exists (tk t); auto|cost_tac]]].
Qed.
Lemma Tr_starts : forall tbl (nx: kind -> Prop), Tr (fun _ => bind P (peek_kind P) (fun k => ret P (okind_in k tbl))) [] nx (fun r => exists k, r = kind_in k tbl /\ nx k).
Proof.
  intros tbl nx. apply (Tr_first _ _ _ (fun _ => _) [] nx nx _ _ (Tr_peek_kind nx) (fun _ H => H)).
  intros r [k [-> Hk]]. apply Tr_ret. exists k. split; [reflexivity|exact Hk].
Qed.
End TR.

(* one step of a proof in this style: [tr_tok L as x H] consumes one token with step lemma L, [tr_look L as x H] looks ahead with L
   (leaving the side condition on the next token), [tr_run H as x Hx] lets a run H consume its tokens (same side condition), [tr_last H as x Hx] the rest of the tokens (leaving: what H assumes of the next token follows from what is known of it);
   each introduces the value and what is known of it and exposes the continuation *)
Tactic Notation "tr_tok" uconstr(L) "as" simple_intropattern(x) simple_intropattern(H) :=
  eapply Tr_cons; [apply L|intros x H; cbv beta].
Tactic Notation "tr_look" uconstr(L) "as" simple_intropattern(x) simple_intropattern(H) :=
  eapply Tr_first; [apply L| |intros x H; cbv beta].
Tactic Notation "tr_run" uconstr(L) "as" simple_intropattern(x) simple_intropattern(H) :=
  eapply Tr_bind; [exact L| |intros x H; cbv beta].
Tactic Notation "tr_last" uconstr(L) "as" simple_intropattern(x) simple_intropattern(H) :=
  eapply Tr_last; [exact L| |intros x H; cbv beta].
