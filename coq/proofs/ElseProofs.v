(* C05 on the whole-parser model: an else belongs to the nearest if.  Whenever the if-production
   of the parser model finishes, either it consumed an `else` itself (three-slot If), or the next
   token of the input is NOT `else` -- for every token stream, state and fuel.  Hence an `else`
   can never be left over for an enclosing if while an inner if without else precedes it. *)
From Coq Require Import List NArith Bool Arith Lia.
Import ListNotations.
From PV Require Import Regex Base LexTables ParserTables AstDefs AstSpec AstImpl PyRepr NodeModel ParserBase ParserDecl ParserMain PostLib StreamLib CoordTokens.
Open Scope nat_scope.

Section EP.
Variable P : Type.
Notation pstate := (pstate P).

Lemma sel_eq : forall f,
  p_selection_statement P (S f) =
  bind P (advance P) (fun t =>
    if kind_eqb (tk t) K_IF then
      bind P (expect P K_LPAREN) (fun _ =>
      bind P (p_expression P f) (fun cond =>
      bind P (expect P K_RPAREN) (fun _ =>
      bind P (p_pragmacomp_or_statement P f) (fun th =>
      bind P (accept P K_ELSE) (fun el =>
      match el with
      | Some _ => bind P (p_pragmacomp_or_statement P f) (fun es => bind P (tcoord P t) (fun c => ret P (mkN P C_If [cond; th; es] c)))
      | None => bind P (tcoord P t) (fun c => ret P (mkN P C_If [cond; th; VNone] c))
      end)))))
    else if kind_eqb (tk t) K_SWITCH then
      bind P (expect P K_LPAREN) (fun _ =>
      bind P (p_expression P f) (fun e =>
      bind P (expect P K_RPAREN) (fun _ =>
      bind P (p_pragmacomp_or_statement P f) (fun st =>
      bind P (tcoord P t) (fun c =>
      fix_switch_cases P (WF) (mkN P C_Switch [e; st] c))))))
    else bind P (tok_coord P t) (fun c => fail P (L_coord P c) (s2l "Invalid selection statement"))).
Proof. reflexivity. Qed.

Lemma accept_Ok : forall k o (s sb: pstate), accept P k s = Ok (o, sb) ->
  match o with
  | Some e => kind_eqb (tk e) k = true
  | None => forall t1 s1, peek P sb = Ok (Some t1, s1) -> kind_eqb (tk t1) k = false
  end.
Proof.
  intros k o s sb H. unfold accept in H. apply bind_Ok in H as (x & sa & Ep & H).
  destruct x as [t'|]; [destruct (kind_eqb (tk t') k) eqn:Ek|].
  - apply bind_Ok in H as (y & sy & Ea & H). apply ret_Ok in H as [-> _].
    destruct (advance_after_peek P _ _ _ _ _ Ep Ea) as [[= ->] _]. exact Ek.
  - apply ret_Ok in H as [-> ->]. intros t1 s1 Hp. apply peek_idem in Ep. rewrite Ep in Hp. injection Hp as <- _. exact Ek.
  - apply ret_Ok in H as [-> ->]. intros t1 s1 Hp. apply peek_idem in Ep. rewrite Ep in Hp. discriminate.
Qed.

Theorem else_binds_to_nearest_if : forall f s r s' t s0,
  p_selection_statement P (S f) s = Ok (r, s') ->
  advance P s = Ok (t, s0) -> kind_eqb (tk t) K_IF = true ->
  exists cond th sa el sb co,
    accept P K_ELSE sa = Ok (el, sb) /\
    match el with
    | Some e => kind_eqb (tk e) K_ELSE = true /\ exists es, r = mkN P C_If [cond; th; es] co
    | None => r = mkN P C_If [cond; th; VNone] co /\ s' = sb /\
              forall t1 s1, peek P s' = Ok (Some t1, s1) -> kind_eqb (tk t1) K_ELSE = false
    end.
Proof.
  intros f s r s' t s0 H Ha Hif. rewrite sel_eq in H. apply bind_Ok in H as (t0 & s00 & Ha0 & H).
  rewrite Ha in Ha0. injection Ha0 as <- <-. rewrite Hif in H.
  apply bind_Ok in H as (x1 & s1 & _ & H). apply bind_Ok in H as (cond & s2 & _ & H). apply bind_Ok in H as (x3 & s3 & _ & H).
  apply bind_Ok in H as (th & sa & _ & H). apply bind_Ok in H as (el & sb & Eacc & H).
  exists cond, th, sa, el, sb. pose proof (accept_Ok _ _ _ _ Eacc) as Hel. destruct el as [e|].
  - apply bind_Ok in H as (es & s5 & _ & H). apply bind_Ok in H as (c & s6 & _ & H). apply ret_Ok in H as [-> _].
    exists c. split; [exact Eacc|]. split; [exact Hel|]. exists es. reflexivity.
  - apply bind_Ok in H as (c & s6 & Ec & H). apply tcoord_Ok in Ec as [_ ->]. apply ret_Ok in H as [-> ->].
    exists c. split; [exact Eacc|]. split; [reflexivity|]. split; [reflexivity|]. exact Hel.
Qed.
End EP.
