(* C07 / C17: CGenerator never looks at coordinates - for every AST, every renaming (or erasure)
   of its coordinates leaves the generated text and the final indentation unchanged.
   By parametricity of the generator model in the coordinate type. *)
From Coq Require Import List NArith ZArith Bool Arith.
Import ListNotations.
From Param Require Import Param.
From PV Require Import Regex Base AstDefs AstSpec AstImpl GenTables NodeModel Generator ParamProofs.

Parametricity Recursive generate qualified.
Notation generate_R := PV_o_model_o_Generator_o_generate_R.
Notation Z_R := Coq_o_Numbers_o_BinNums_o_Z_R.
Notation bool_R := Coq_o_Init_o_Datatypes_o_bool_R.

Lemma cls_R_refl : forall c, cls_R c c.
Proof. destruct c; constructor. Defined.
Lemma bool_R_refl : forall b, bool_R b b.
Proof. destruct b; constructor. Defined.
Lemma Z_R_eq : forall a b, Z_R a b -> a = b.
Proof. intros a b r. destruct r as [|p q pr|p q pr]; [reflexivity| |]; f_equal; apply positive_R_eq; exact pr. Qed.

Section G.
Variables (A B : Type) (g : A -> B).

Fixpoint vmap_related (v: value A) : value_R A B (fun a b => b = g a) v (vmap A B g v) :=
  match v as v0 return value_R A B (fun a b => b = g a) v0 (vmap A B g v0) with
  | VNone => PV_o_model_o_NodeModel_o_value_R_VNone_R A B _
  | VStr s => PV_o_model_o_NodeModel_o_value_R_VStr_R A B _ s s (str_R_refl s)
  | VList l =>
    PV_o_model_o_NodeModel_o_value_R_VList_R A B _ l (map (vmap A B g) l)
      ((fix go (l: list (value A)) : list_R (value A) (value B) (value_R A B (fun a b => b = g a)) l (map (vmap A B g) l) :=
          match l with
          | [] => Coq_o_Init_o_Datatypes_o_list_R_nil_R _ _ _
          | x :: r => Coq_o_Init_o_Datatypes_o_list_R_cons_R _ _ _ x (vmap A B g x) (vmap_related x) r (map (vmap A B g) r) (go r)
          end) l)
  | VNode c fs co =>
    PV_o_model_o_NodeModel_o_value_R_VNode_R A B _ c c (cls_R_refl c) fs (map (vmap A B g) fs)
      ((fix go (l: list (value A)) : list_R (value A) (value B) (value_R A B (fun a b => b = g a)) l (map (vmap A B g) l) :=
          match l with
          | [] => Coq_o_Init_o_Datatypes_o_list_R_nil_R _ _ _
          | x :: r => Coq_o_Init_o_Datatypes_o_list_R_cons_R _ _ _ x (vmap A B g x) (vmap_related x) r (map (vmap A B g) r) (go r)
          end) fs)
      co (option_map g co)
      (match co as o return option_R A B (fun a b => b = g a) o (option_map g o) with
       | Some a => Coq_o_Init_o_Datatypes_o_option_R_Some_R _ _ _ a (g a) eq_refl
       | None => Coq_o_Init_o_Datatypes_o_option_R_None_R _ _ _
       end)
  end.

Theorem gen_ignores_coords : forall rp fuel (v: value A),
  generate B rp fuel (vmap A B g v) = match generate A rp fuel v with
                                       | GOk x => GOk x | GCrash => GCrash | GFuel => GFuel end.
Proof.
  intros rp fuel v.
  pose proof (generate_R A B (fun a b => b = g a) rp rp (bool_R_refl rp) fuel fuel (nat_R_refl fuel) v _ (vmap_related v)) as H.
  destruct H as [[t1 z1] [t2 z2] pr | |].
  - destruct pr as [a1 a2 ar b1 b2 br]. apply str_R_eq in ar. apply Z_R_eq in br. subst. reflexivity.
  - reflexivity.
  - reflexivity.
Qed.
End G.

Corollary gen_same_text_up_to_coords : forall (A1 A2: Type) rp fuel (v1: value A1) (v2: value A2),
  vmap A1 unit (fun _ => tt) v1 = vmap A2 unit (fun _ => tt) v2 ->
  match generate A1 rp fuel v1, generate A2 rp fuel v2 with
  | GOk x, GOk y => x = y
  | GCrash, GCrash => True
  | GFuel, GFuel => True
  | _, _ => False
  end.
Proof.
  intros A1 A2 rp fuel v1 v2 H.
  pose proof (gen_ignores_coords A1 unit (fun _ => tt) rp fuel v1) as H1.
  pose proof (gen_ignores_coords A2 unit (fun _ => tt) rp fuel v2) as H2.
  rewrite H in H1. rewrite H1 in H2.
  destruct (generate A1 rp fuel v1) as [x| |]; destruct (generate A2 rp fuel v2) as [y| |]; try discriminate; auto.
  inversion H2. reflexivity.
Qed.
