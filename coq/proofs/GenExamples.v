From Coq Require Import List NArith Bool Arith.
Import ListNotations.
From PV Require Import Regex Base LexTables NodeModel ParserBase ParserDecl ParserMain Api.

(* parse . generate . parse = parse and second generation = first (default configuration) *)
Example ex_C07_roundtrip_decls :
  roundtrip_ok false (s2l "typedef int T; static const T a = 1, *b[3], (*fp)(int, char *); struct S { int x : 3; T y; } s = { .x = 1, .y = 2 };") = true.
Proof. vm_compute. reflexivity. Qed.
(* ... and with reduce_parentheses *)
Example ex_C07_roundtrip_rp_decls :
  roundtrip_ok true (s2l "typedef int T; static const T a = 1, *b[3], (*fp)(int, char *); struct S { int x : 3; T y; } s = { .x = 1, .y = 2 };") = true.
Proof. vm_compute. reflexivity. Qed.
Example ex_C07_roundtrip_exprs :
  roundtrip_ok false (s2l "int f(int a, int b) { return (a + b) * (a - b) / (a ? b : -a) + sizeof(int) + (int)a % b << 2 >= (a & b | a ^ b) && !a || ~b; }") = true.
Proof. vm_compute. reflexivity. Qed.
Example ex_C07_roundtrip_rp_exprs :
  roundtrip_ok true (s2l "int f(int a, int b) { return (a + b) * (a - b) / (a ? b : -a) + sizeof(int) + (int)a % b << 2 >= (a & b | a ^ b) && !a || ~b; }") = true.
Proof. vm_compute. reflexivity. Qed.
Example ex_C07_roundtrip_stmts :
  roundtrip_ok false (s2l "void g(int n) { for (int i = 0; i < n; i++) { if (i) continue; else break; } while (n--) ; do n++; while (n < 3); switch (n) { case 1: case 2: n = 1; break; default: ; } L: goto L; }") = true.
Proof. vm_compute. reflexivity. Qed.
Example ex_C07_roundtrip_rp_stmts :
  roundtrip_ok true (s2l "void g(int n) { for (int i = 0; i < n; i++) { if (i) continue; else break; } while (n--) ; do n++; while (n < 3); switch (n) { case 1: case 2: n = 1; break; default: ; } L: goto L; }") = true.
Proof. vm_compute. reflexivity. Qed.
Example ex_C07_roundtrip_nested_ops :
  roundtrip_ok false (s2l "int h(int a, int b, int c) { return a - (b - c) + a * (b + c) - (a - b) - c + a / (b / c) + (a << b) + c; }") = true.
Proof. vm_compute. reflexivity. Qed.
Example ex_C07_roundtrip_rp_nested_ops :
  roundtrip_ok true (s2l "int h(int a, int b, int c) { return a - (b - c) + a * (b + c) - (a - b) - c + a / (b / c) + (a << b) + c; }") = true.
Proof. vm_compute. reflexivity. Qed.
(* witness (known finding): a for-init declaration with several declarators does not round-trip *)
Example ex_C07_forinit_multi_refuted :
  roundtrip_ok false (s2l "void f(void){ for (int *p = 0, *q = 0; ; ) ; }") = false.
Proof. vm_compute. reflexivity. Qed.
(* witness (known finding): an assignment whose lvalue is a comma expression does not round-trip *)
Example ex_C07_assign_lvalue_refuted :
  roundtrip_ok false (s2l "void f(void){ (a, b) = 1; }") = false.
Proof. vm_compute. reflexivity. Qed.
