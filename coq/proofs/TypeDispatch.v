(* C04: where the parser asks "is this identifier a type name?" the answer is the classification the
   identifier got when it was delivered, and that classification is the scope lookup at delivery time.
   For EVERY parser state and token stream:
   - an identifier item is delivered as TYPEID exactly when is_type_in finds it a typedef in the scope stack at that
     moment (identifier_classified_by_scope);
   - the first token of a block item sends the parser to p_declaration exactly when it can start a declaration -
     for an identifier: exactly when it was classified TYPEID (block_item_dispatch, identifier_block_item);
   - after `(` the cast / compound-literal / sizeof productions try a type name exactly when the next token can
     start a declaration (paren_type / RoundTrip.tptn_not_type_c), and otherwise leave the stream untouched: `( T ) ( x )`
     is a cast when T was delivered as a type name, a call when it was delivered as an identifier
     (paren_T_paren_x_type / paren_T_paren_x_object). *)
From Coq Require Import String.
From Coq Require Import List NArith Bool Arith Lia.
Import ListNotations.
From PV Require Import Regex Base AstDefs AstSpec AstImpl GenTables NodeModel Generator ClimbProofs ClimbComplete GenParen GenBinop.
From PV Require Import LexTables ParserTables PyRepr ParserBase ParserDecl ParserMain LexerProofs TableProofs.
From PV Require Import BinaryRefine ExprShape UnaryShape CoordProofs ElseProofs StreamLib RoundTrip RoundTripGen TypeName RoundTripX StmtTrip.
Open Scope nat_scope.

Section TD.
Variable P : Type.
Notation pstate := (ParserBase.pstate P).
Notation Up := (StreamLib.Up P).

Lemma head_classified : forall (s: pstate) t l, after P s = [] -> Up s (t :: l) ->
  exists i r sc', raw P s = i :: r /\ cl P (scopes P s) i = Some (t, sc').
Proof.
  intros s t l Ha [a [l2 [E1 [E2 HU]]]]. rewrite Ha in E1. destruct a as [|x a]; [|discriminate E1]. cbn [app] in E2. subst l2.
  destruct (UpR_inv P _ _ _ _ HU) as [i [r [sc' [Er [Hc _]]]]]. exists i, r, sc'. split; assumption.
Qed.

Theorem identifier_classified_by_scope : forall (s: pstate) v p fa r t l, after P s = [] -> raw P s = PTok P K_ID v p fa :: r -> Up s (t :: l) ->
  tk t = (if is_type_in (Some v) (scopes P s) then K_TYPEID else K_ID) /\ tv t = v.
Proof.
  intros s v p fa r t l Ha Hr HU. destruct (head_classified s t l Ha HU) as [i [r' [sc' [Er Hc]]]].
  rewrite Hr in Er. injection Er as <- _. cbn in Hc. injection Hc as <- _. split; reflexivity.
Qed.

Theorem other_token_kind_kept : forall (s: pstate) k v p fa r t l, after P s = [] -> raw P s = PTok P k v p fa :: r -> kind_eqb k K_ID = false ->
  Up s (t :: l) -> tk t = k /\ tv t = v.
Proof.
  intros s k v p fa r t l Ha Hr Hk HU. destruct (head_classified s t l Ha HU) as [i [r' [sc' [Er Hc]]]].
  rewrite Hr in Er. injection Er as <- _. cbn [cl] in Hc. rewrite Hk in Hc.
  destruct (kind_eqb k K_LBRACE); [injection Hc as <- _; split; reflexivity|].
  destruct (kind_eqb k K_RBRACE); [destruct (scopes P s) as [|? [|? ?]]; try discriminate Hc; injection Hc as <- _; split; reflexivity|].
  injection Hc as <- _. split; reflexivity.
Qed.

Theorem block_item_dispatch : forall (s: pstate) t l, Up s (t :: l) -> kind_eqb (tk t) K_RBRACE = false ->
  exists s2, Up s2 (t :: l) /\ Same P s s2 /\ forall f,
    p_block_item_list P (S f) s =
    bind P (if kind_in (tk t) tbl_DECL_START then p_declaration P f else bind P (p_statement P f) (fun s0 => ret P (stmt_to_items P s0)))
           (fun items => bind P (p_block_item_list P f) (fun rest => ret P (items ++ rest))) s2.
Proof.
  intros s t l HU Hnrb. destruct (peek_kind_up P s t _ HU) as [s1 [H1 [HU1 HS1]]].
  destruct (peek_kind_up P s1 t _ HU1) as [s2 [H2 [HU2 HS2]]].
  exists s2. split; [exact HU2|]. split; [exact (Same_trans P _ _ _ HS1 HS2)|]. intros f.
  rewrite (blk_eq P). unfold bind at 1. rewrite H1. rewrite Hnrb.
  unfold bind at 1. unfold starts_declaration. unfold bind at 1. rewrite H2. unfold ret at 1. cbn [okind_in]. reflexivity.
Qed.

Lemma typeid_starts_declaration : kind_in K_TYPEID tbl_DECL_START = true /\ kind_in K_ID tbl_DECL_START = false.
Proof. split; vm_compute; reflexivity. Qed.

Theorem paren_type : forall (s: pstate) lp x l, Up s (lp :: x :: l) -> kind_eqb (tk lp) K_LPAREN = true ->
  kind_in (tk x) tbl_DECL_START = true ->
  exists s3, Up s3 (x :: l) /\ idx P s3 = S (idx P s) /\ forall f,
    try_paren_type_name P (S f) s =
    bind P (p_type_name P f) (fun typ => bind P (accept P K_RPAREN) (fun rpn =>
      match rpn with
      | None => bind P (reset P (idx P s)) (fun _ => ret P None)
      | Some _ => ret P (Some (typ, idx P s, lp))
      end)) s3.
Proof.
  intros s lp x l HU Hk Hx. destruct (accept_hit P s lp (x :: l) K_LPAREN HU Hk) as [s2 [Ha [HU2 HA]]].
  destruct (peek_kind_up P s2 x l HU2) as [s3 [Hp [HU3 HS]]].
  exists s3. split; [exact HU3|]. split; [destruct HA as (_ & ? & _); destruct HS as (_ & ? & _); congruence|]. intros f.
  rewrite (tptn_eq P). unfold bind at 1. rewrite mark_eq. unfold bind at 1. rewrite Ha.
  unfold bind at 1. unfold starts_declaration. unfold bind at 1. rewrite Hp. unfold ret at 1. cbn [okind_in]. rewrite Hx. cbn [negb]. reflexivity.
Qed.

Theorem identifier_block_item : forall (s: pstate) v p fa r t l, after P s = [] -> raw P s = PTok P K_ID v p fa :: r -> Up s (t :: l) ->
  exists s2, Up s2 (t :: l) /\ Same P s s2 /\ forall f,
    p_block_item_list P (S f) s =
    bind P (if is_type_in (Some v) (scopes P s) then p_declaration P f else bind P (p_statement P f) (fun s0 => ret P (stmt_to_items P s0)))
           (fun items => bind P (p_block_item_list P f) (fun rest => ret P (items ++ rest))) s2.
Proof.
  intros s v p fa r t l Ha Hr HU. destruct (identifier_classified_by_scope s v p fa r t l Ha Hr HU) as [Hk _].
  assert (Hnrb: kind_eqb (tk t) K_RBRACE = false) by (rewrite Hk; destruct (is_type_in (Some v) (scopes P s)); reflexivity).
  destruct (block_item_dispatch s t l HU Hnrb) as [s2 [HU2 [HS2 E]]]. exists s2. split; [exact HU2|]. split; [exact HS2|]. intros f. rewrite E.
  rewrite Hk. destruct (is_type_in (Some v) (scopes P s)); reflexivity.
Qed.
End TD.

Section CastOrCall.
Variable P : Type.
Definition ptpx (k: kind) (T x: str) : list (kind * str) :=
  [(K_LPAREN, s2l "("); (k, T); (K_RPAREN, s2l ")"); (K_LPAREN, s2l "("); (K_ID, x); (K_RPAREN, s2l ")")].

Lemma id_expr : forall a, RoundTripX.T P false (XId a).
Proof. intros a. exact (T_all P false 1 (XId a) (le_n _) I). Qed.

Theorem paren_T_paren_x_type : forall T x,
  CastS P (ptpx K_TYPEID T x) (VNode C_Cast [tn_emb [T]; VNode C_ID [VStr x] None] None).
Proof.
  intros T x. pose proof (id_expr x) as Hx.
  exact (cast_type P [(K_TYPEID, T)] (parkv [(K_ID, x)]) _ (typeid_tyok P T) (first_ok_parkv _ (proj1 Hx)) (T_paren P false _ Hx)).
Qed.

Theorem paren_T_paren_x_object : forall T x,
  CastS P (ptpx K_ID T x) (VNode C_FuncCall [VNode C_ID [VStr T] None; VNode C_ExprList [VList [VNode C_ID [VStr x] None]] None] None).
Proof.
  intros T x. pose proof (id_expr T) as HT. pose proof (id_expr x) as Hx.
  pose proof (R_call P (parkv [(K_ID, T)]) _ [(K_ID, x)] _ [] (embx_node (XId T)) (embx_node (XId x)) (R_paren P _ _ (T_expr P false _ HT))
                (proj1 Hx) (T_asg_argt P false _ Hx) (Forall_nil _)) as HR.
  change (ptpx K_ID T x) with (parkv [(K_ID, T)] ++ (K_LPAREN, s2l "(") :: commas ([(K_ID, x)] :: map fst (@nil (list (kind * str) * value unit))) ++ [(K_RPAREN, s2l ")")]).
  apply chain_to_cast; [|exact HR]. apply head_idlp_app. apply head_idlp_parkv. exact (proj1 HT).
Qed.
End CastOrCall.

(* non-vacuity: `T * x ;` in a block where T is a typedef / an object *)
Definition td_items : list (pitem nat) :=
  [PTok nat K_ID (s2l "T") 1 0; PTok nat K_TIMES (s2l "*") 2 0; PTok nat K_ID (s2l "x") 3 0; PTok nat K_SEMI (s2l ";") 4 0; PTok nat K_RBRACE (s2l "}") 5 0].
Definition td_state (is_type: bool) : pstate nat := mkPS nat td_items 0 [] [] 0 [[]; [(Some (s2l "T"), is_type)]] 0 0%N.
Definition first_class (r: res nat (list (node nat) * pstate nat)) : option cls :=
  match r with Ok (VNode c _ _ :: _, _) => Some c | _ => None end.
Example typedef_decides_declaration :
  first_class (p_block_item_list nat 60 (td_state true)) = Some C_Decl /\
  first_class (p_block_item_list nat 60 (td_state false)) = Some C_BinaryOp /\
  is_type_in (Some (s2l "T")) (scopes nat (td_state true)) = true /\ is_type_in (Some (s2l "T")) (scopes nat (td_state false)) = false.
Proof. repeat split; vm_compute; reflexivity. Qed.
