(* C03 core: _type_modify_decl splices modifier chains - for chains of any length. *)
From Coq Require Import List NArith Bool Arith Lia.
Import ListNotations.
From PV Require Import Regex Base LexTables ParserTables AstDefs AstSpec AstImpl PyRepr NodeModel ParserBase.

Open Scope nat_scope.
Section DP.
Variable P : Type.
Notation node := (node P).
Notation coord := (coord P).

Inductive link :=
| LPtr (quals: node) (co: option coord)
| LArr (dim dim_quals: node) (co: option coord)
| LFun (args: node) (co: option coord).

Definition wrap (l: link) (inner: node) : node :=
  match l with
  | LPtr q co => VNode C_PtrDecl [q; inner] co
  | LArr d dq co => VNode C_ArrayDecl [inner; d; dq] co
  | LFun a co => VNode C_FuncDecl [a; inner] co
  end.

(* a chain: the first link is the outermost node *)
Definition build (ls: list link) (base: node) : node := fold_right wrap base ls.

Definition typedecl (fs: list node) (co: option coord) : node := VNode C_TypeDecl fs co.

Lemma get_type_wrap : forall l x, get_attr P a_type (wrap l x) = Some x.
Proof. destruct l; reflexivity. Qed.
Lemma set_type_wrap : forall l x y, set_attr P a_type y (wrap l x) = Some (wrap l y).
Proof. destruct l; reflexivity. Qed.
Lemma wrap_not_typedecl : forall l x, is_cls P C_TypeDecl (wrap l x) = false.
Proof. destruct l; reflexivity. Qed.
Lemma wrap_truthy : forall l x, truthy P (wrap l x) = true.
Proof. destruct l; reflexivity. Qed.
Lemma typedecl_is : forall fs co, is_cls P C_TypeDecl (typedecl fs co) = true.
Proof. reflexivity. Qed.

(* what the three loops return, whatever the fuel: the spliced chain when the fuel covers the chains, else RecursionError *)
Lemma set_tail_spec : forall lm x fuel s, lm <> [] ->
  set_tail P fuel (build lm VNone) x s = if length lm <=? fuel then Ok (build lm x, s) else OutOfFuel.
Proof.
  induction lm as [|l lm IH]; intros x fuel s Hne; [congruence|]. destruct fuel as [|f]; [reflexivity|].
  cbn [build fold_right set_tail length Nat.leb]. unfold bind, getA, setA, lift_opt. rewrite get_type_wrap. cbn [ret].
  destruct lm as [|l2 lm2]; [cbn [fold_right truthy]; rewrite set_type_wrap; reflexivity|].
  change (fold_right wrap VNone (l2 :: lm2)) with (build (l2 :: lm2) VNone).
  replace (truthy P (build (l2 :: lm2) VNone)) with true by (symmetry; apply wrap_truthy).
  rewrite IH by discriminate. destruct (length (l2 :: lm2) <=? f); [rewrite set_type_wrap|]; reflexivity.
Qed.

Lemma splice_spec : forall ld fs co lm fuel s, ld <> [] -> lm <> [] ->
  splice P fuel (build ld (typedecl fs co)) (build lm VNone) s
  = if length ld + length lm <=? fuel then Ok (build (ld ++ lm) (typedecl fs co), s) else OutOfFuel.
Proof.
  induction ld as [|l ld IH]; intros fs co lm fuel s Hd Hm; [congruence|]. destruct fuel as [|f]; [reflexivity|].
  cbn [build fold_right splice app length Nat.add Nat.leb]. unfold bind, getA, setA, lift_opt. rewrite get_type_wrap. cbn [ret].
  destruct ld as [|l2 ld2].
  - cbn [fold_right app length Nat.add]. rewrite typedecl_is, set_tail_spec by exact Hm.
    destruct (length lm <=? f); [rewrite set_type_wrap|]; reflexivity.
  - change (fold_right wrap (typedecl fs co) (l2 :: ld2)) with (build (l2 :: ld2) (typedecl fs co)).
    replace (is_cls P C_TypeDecl (build (l2 :: ld2) (typedecl fs co))) with false by (symmetry; apply wrap_not_typedecl).
    rewrite IH by (discriminate || exact Hm). destruct (length (l2 :: ld2) + length lm <=? f); [rewrite set_type_wrap|]; reflexivity.
Qed.

Lemma modify_spec : forall ld fs co lm fuel s, lm <> [] ->
  type_modify_decl P fuel (build ld (typedecl fs co)) (build lm VNone) s
  = if length ld + length lm <=? fuel then Ok (build (ld ++ lm) (typedecl fs co), s) else OutOfFuel.
Proof.
  intros ld fs co lm fuel s Hm. unfold type_modify_decl. destruct ld as [|l ld]; [apply set_tail_spec; exact Hm|].
  replace (is_cls P C_TypeDecl (build (l :: ld) (typedecl fs co))) with false by (symmetry; apply wrap_not_typedecl).
  unfold bind. rewrite set_tail_spec by exact Hm. destruct (length lm <=? fuel) eqn:E; [apply splice_spec; [discriminate|exact Hm]|].
  apply Nat.leb_gt in E. symmetry. destruct (Nat.leb_spec (length (l :: ld) + length lm) fuel); [lia|reflexivity].
Qed.

(* _type_modify_decl(decl, modifier): the modifier chain is spliced between the declarator's own
   chain and its TypeDecl - for a declarator chain and a modifier chain of any length *)
Theorem modify_splice : forall ld fs co lm fuel s, lm <> [] -> length ld + length lm <= fuel ->
  type_modify_decl P fuel (build ld (typedecl fs co)) (build lm VNone) s
  = Ok (build (ld ++ lm) (typedecl fs co), s).
Proof.
  intros ld fs co lm fuel s Hm Hlen. rewrite modify_spec by exact Hm. apply Nat.leb_le in Hlen. rewrite Hlen. reflexivity.
Qed.

Definition derivs (ls: list link) : list link := ls.

(* consequence: applying the pointer prefix and then each suffix in source order builds the chain
   in C's inside-out order: `* D [3] (void)` with D the name gives  Arr, Fun, Ptr  under the name *)
Corollary pointer_then_suffixes : forall fs co ptrs suffixes fuel s,
  ptrs <> [] -> suffixes <> [] -> length suffixes + length ptrs <= fuel ->
  type_modify_decl P fuel (build suffixes (typedecl fs co)) (build ptrs VNone) s
  = Ok (build (suffixes ++ ptrs) (typedecl fs co), s).
Proof. intros. apply modify_splice; assumption. Qed.
End DP.
