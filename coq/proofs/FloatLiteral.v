(* C10, unbounded: every floating-constant token the lexer can emit (decimal and hexadecimal, any number of
   digits) is classified by _parse_constant - no IndexError - and the type is the one its suffix spells:
   none -> double, f/F -> float, l/L -> long double.  Same route as IntLiteral.v: the denotation [in_re] of the
   regenerated rules, a computed split  body . finite-suffix-list, and two computed analyses of the body
   (it is never empty; its last character is never one of f F l L - in a hexadecimal constant the body ends
   in the decimal digits of the binary exponent, although hex digits a-f occur before). *)
From Coq Require Import List NArith Bool Arith Lia.
Import ListNotations.
From PV Require Import Regex Base UnicodeTables LexTables PyRepr Lexer RegexLemmas LexerProofs AstDefs AstSpec AstImpl NodeModel ParserBase ParserDecl IntLiteral.
Open Scope nat_scope.

Definition SFX : list N := [70; 76; 102; 108]%N.    (* F L f l *)

Fixpoint nonnull (r: re) : bool :=
  match r with
  | Chr _ => true
  | Seq a b => nonnull a || nonnull b
  | Alt a b => nonnull a && nonnull b
  | _ => false
  end.
(* the last character of every non-empty word of r is not one of SFX *)
Fixpoint lastok (r: re) : bool :=
  match r with
  | Eps | NotAhead _ | AtEnd => true
  | Chr (CSet false rs) => forallb (range_ok SFX) rs
  | Chr (CSet true _) => false
  | Seq a b => lastok b && (nonnull b || lastok a)
  | Alt a b => lastok a && lastok b
  | Star a => lastok a
  end.

Lemma nonnull_nullable : forall r, nonnull r = negb (nullable r).
Proof.
  induction r as [| |a IHa b IHb|a IHa b IHb| | |]; cbn [nonnull nullable]; try reflexivity; rewrite IHa, IHb;
    [symmetry; apply negb_andb|symmetry; apply negb_orb].
Qed.

Lemma nonnull_sound : forall r w, nonnull r = true -> in_re r w -> w <> [].
Proof.
  intros r w H Hin ->. rewrite nonnull_nullable, (in_re_nil_nullable _ _ Hin eq_refl) in H. discriminate.
Qed.

Definition lastgood (w: str) : Prop := match last_opt w with Some c => ~ In c SFX | None => True end.

Lemma last_opt_app : forall (x y: str), y <> [] -> last_opt (x ++ y) = last_opt y.
Proof.
  induction x as [|a x IH]; intros y Hy; [reflexivity|]. cbn [app]. specialize (IH y Hy).
  destruct (x ++ y) eqn:E; [apply app_eq_nil in E; tauto|]. cbn [last_opt] in *. exact IH.
Qed.

Lemma last_opt_none : forall x: str, last_opt x = None -> x = [].
Proof. induction x as [|a [|b x] IH]; [reflexivity|discriminate|]. intros H. discriminate (IH H). Qed.

Lemma lastok_sound : forall r w, lastok r = true -> in_re r w -> lastgood w.
Proof.
  intros r w H Hin. induction Hin; cbn [lastok] in H; try exact I.
  - destruct cs as [[|] rs]; [discriminate|]. exact (range_ok_sound _ _ _ H H0).
  - apply andb_true_iff in H. destruct H as [Hb Ha]. destruct y as [|c y'].
    + rewrite app_nil_r. apply orb_true_iff in Ha. destruct Ha as [Ha|Ha]; [exfalso; exact (nonnull_sound _ _ Ha Hin2 eq_refl)|apply IHHin1; exact Ha].
    + unfold lastgood. rewrite last_opt_app by discriminate. apply IHHin2. exact Hb.
  - apply andb_true_iff in H. destruct H as [Ha Hb]. auto.
  - apply andb_true_iff in H. destruct H as [Ha Hb]. auto.
  - destruct y as [|c y']; [rewrite app_nil_r; apply IHHin1; exact H|]. unfold lastgood. rewrite last_opt_app by discriminate. apply IHHin2. exact H.
Qed.

Definition spec_ftype (t: str) : str :=
  match t with
  | [c] => if N.eqb c 102 || N.eqb c 70 then s2l "float" else if N.eqb c 108 || N.eqb c 76 then s2l "long double" else s2l "double"
  | _ => s2l "double"
  end.
Definition ftail_ok (t: str) : bool := match t with [] => true | [c] => existsb (N.eqb c) SFX | _ => false end.
Definition rulef_ok (r: re) : bool :=
  match rsplit r with
  | Some (b, ts) => nonnull b && lastok b && forallb ftail_ok ts
  | None => false
  end.

Lemma float_rules_ok : rulef_ok re_FLOAT_CONST = true /\ rulef_ok re_HEX_FLOAT_CONST = true.
Proof. vm_compute. split; reflexivity. Qed.

Theorem float_word_classified : forall r w, rulef_ok r = true -> in_re r w ->
  exists x t, w = x ++ t /\ x <> [] /\ lastgood x /\ float_const_type w = Some (spec_ftype t).
Proof.
  intros r w Hok Hin. unfold rulef_ok in Hok. destruct (rsplit r) as [[b ts]|] eqn:E; [|discriminate].
  apply andb_true_iff in Hok. destruct Hok as [Hok Ht]. apply andb_true_iff in Hok. destruct Hok as [Hnn Hl].
  destruct (rsplit_sound _ _ _ _ E Hin) as (x & t & -> & Hb & Hint).
  pose proof (nonnull_sound _ _ Hnn Hb) as Hx. pose proof (lastok_sound _ _ Hl Hb) as Hlx.
  apply (forallb_In _ _ _ Ht) in Hint. clear Ht. rename Hint into Ht.
  exists x, t. split; [reflexivity|]. split; [exact Hx|]. split; [exact Hlx|].
  unfold float_const_type. destruct t as [|c [|c2 t2]]; [| |discriminate Ht].
  - rewrite app_nil_r. unfold lastgood in Hlx. destruct (last_opt x) as [c|] eqn:El.
    + cbn [spec_ftype]. unfold is_lL. rewrite !(not_in_eqb c _ SFX Hlx) by (cbn; auto 6). reflexivity.
    + destruct (Hx (last_opt_none _ El)).
  - rewrite last_opt_app by discriminate. reflexivity.
Qed.

Definition float_kind (k: kind) : option re :=
  match k with K_FLOAT_CONST => Some re_FLOAT_CONST | K_HEX_FLOAT_CONST => Some re_HEX_FLOAT_CONST | _ => None end.
Definition is_float_kind (k: kind) : bool := match float_kind k with Some _ => true | None => false end.

Lemma float_rules_of_table :
  forallb (fun r => match ract r with
                    | A_TOKEN k => if is_float_kind k then rulef_ok (rre r) else true
                    | _ => true end) regex_rules = true.
Proof. vm_compute. reflexivity. Qed.
Lemma float_regex_only : regex_only is_float_kind = true.
Proof. vm_compute. reflexivity. Qed.

Definition fitem_ok (i: raw_item) : Prop :=
  match i with
  | RTok k v _ _ _ => is_float_kind k = true ->
      exists x t, v = x ++ t /\ x <> [] /\ lastgood x /\ float_const_type v = Some (spec_ftype t)
  | _ => True
  end.

(* every floating-constant token of the whole token stream of any text: its spelling is a non-empty body that does not end
   in f F l L, followed by a suffix, and _parse_constant's classifier gives it the type that suffix spells (never IndexError) *)
Theorem lexer_float_tokens_typed : forall fuel st rest, Forall fitem_ok (fst (fst (raw_lex fuel st rest))).
Proof. exact (raw_lex_rule_tokens _ _ _ float_regex_only float_rules_of_table float_word_classified). Qed.
