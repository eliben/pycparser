(* C14: Node.show prints exactly one line per reachable node.  For every AST whose header lines (class name,
   attribute values as show renders them, coordinate text) contain no newline (a node that carries a node or a
   multi-line string in a plain attribute has such a newline) - and every combination of show's
   options: the number of newline characters of the output equals the number of reachable nodes (pre-order). *)
From Coq Require Import List NArith Bool Arith Lia.
Import ListNotations.
From PV Require Import Regex Base AstDefs AstSpec AstImpl PyRepr NodeModel VisitProofs.
Open Scope nat_scope.

Section SH.
Variable P : Type.
Variable pr : N -> bool.
Variable coord_str : option P -> str.
Variable o : show_opts.
Notation value := (value P).

Definition nl (s: str) : nat := length (filter (N.eqb 10) s).
Lemma nl_app : forall a b, nl (a ++ b) = nl a + nl b.
Proof. intros. unfold nl. rewrite filter_app, app_length. reflexivity. Qed.
Lemma nl_zero : forall s, ~ In 10%N s -> nl s = 0.
Proof.
  intros s H. unfold nl. induction s as [|c s IH]; [reflexivity|]. cbn [filter].
  destruct (N.eqb_spec 10 c) as [E|_]; [exfalso; apply H; left; symmetry; exact E|]. apply IH. intros Hi. apply H. right. exact Hi.
Qed.

(* the header line of a node, as show builds it *)
Definition header (fuel offset: nat) (my_name: option str) (ci: class_impl) (fs: list value) (co: option P) : str :=
  let lead := spaces offset in
  let head := match so_nodenames o, my_name with
              | true, Some nm => lead ++ ci_name ci ++ s2l " <" ++ nm ++ s2l ">: "
              | _, _ => lead ++ ci_name ci ++ s2l ": "
              end in
  let nv := filter (fun p => so_showemptyattrs o || negb (is_empty_attr P (snd p)))
              (flat_map (fun n => match get_field P ci fs n with Some a => [(n, a)] | None => [] end) (ci_attr_names ci)) in
  let attrstr := join_str [44; 32]%N
                   (map (fun p => if so_attrnames o then fst p ++ [61%N] ++ attr_str P pr fuel (snd p) else attr_str P pr fuel (snd p)) nv) in
  let coordstr := if so_showcoord o then s2l " (at " ++ coord_str co ++ [41%N] else [] in
  head ++ attrstr ++ coordstr.

Lemma show_eq : forall f offset my_name c fs co,
  show P pr coord_str o (S f) offset my_name (VNode c fs co) =
  match impl_of c with
  | None => None
  | Some ci =>
    match children_of P ci fs with
    | None => None
    | Some ch =>
      match cat_opt (fun nm cv => show P pr coord_str o f (offset + 2) (Some nm) cv) ch with
      | Some rest => Some (header (S f) offset my_name ci fs co ++ [10%N] ++ rest)
      | None => None
      end
    end
  end.
Proof.
  intros. cbn [show]. destruct (impl_of c) as [ci|]; [|reflexivity].
  destruct (children_of P ci fs) as [ch|]; [|reflexivity].
  match goal with |- match ?G with _ => _ end = match ?G' with _ => _ end => change G with G'; destruct G' as [rest|] end; [|reflexivity].
  unfold header. rewrite <- !app_assoc. reflexivity.
Qed.

(* every header line of the tree is free of newlines *)
Fixpoint headers_ok (fuel offset: nat) (my_name: option str) (v: value) : Prop :=
  match fuel with
  | O => True
  | S f =>
    match v with
    | VNode c fs co =>
      match impl_of c with
      | None => True
      | Some ci =>
        ~ In 10%N (header (S f) offset my_name ci fs co) /\
        match children_of P ci fs with
        | None => True
        | Some ch => Forall (fun nc => headers_ok f (offset + 2) (Some (fst nc)) (snd nc)) ch
        end
      end
    | _ => True
    end
  end.

Theorem show_one_line_per_node : forall f offset my_name v out,
  show P pr coord_str o f offset my_name v = Some out -> headers_ok f offset my_name v ->
  exists nodes, preorder P f v = Some nodes /\ nl out = length nodes.
Proof.
  induction f as [|f IH]; intros offset my_name v out H Hok; [discriminate|].
  destruct v as [| |l|c fs co]; try discriminate.
  rewrite show_eq in H. cbn [headers_ok] in Hok. rewrite preorder_S. unfold children.
  destruct (impl_of c) as [ci|]; [|discriminate]. destruct Hok as [Hh Hch].
  destruct (children_of P ci fs) as [ch|]; [|discriminate].
  destruct (cat_opt _ ch) as [rest|] eqn:Eg in H; [|discriminate]. injection H as <-.
  assert (Go: exists ns, cat_opt (fun _ cv => preorder P f cv) ch = Some ns /\ nl rest = length ns).
  { revert rest Eg. induction Hch as [|[nm cv] ch Hcv _ IHch]; intros rest Hg; cbn [cat_opt] in *.
    - injection Hg as <-. exists []. split; reflexivity.
    - destruct (show P pr coord_str o f (offset + 2) (Some nm) cv) as [a|] eqn:Ea; [|discriminate].
      destruct (cat_opt _ ch) as [b|] in Hg, IHch; [|discriminate]. injection Hg as <-.
      destruct (IH _ _ _ _ Ea Hcv) as (n1 & -> & Hl1). destruct (IHch _ eq_refl) as (n2 & -> & Hl2).
      exists (n1 ++ n2). split; [reflexivity|]. rewrite nl_app, app_length. lia. }
  destruct Go as (ns & -> & Hl). exists (c :: ns). split; [reflexivity|].
  rewrite nl_app, (nl_zero _ Hh). exact (f_equal S Hl).
Qed.
End SH.
