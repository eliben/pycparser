(* C03: each declared entity gets its own Decl / Typedef, in source order: the loop of _build_declarations returns
   exactly one node per declarator, the i-th one built by some run of build_one on the i-th declarator (with which
   specifiers and from which state is not said), for declarator lists of any length. *)
From Coq Require Import List NArith Bool Arith Lia.
Import ListNotations.
From PV Require Import Regex Base LexTables ParserTables AstDefs AstSpec AstImpl PyRepr NodeModel ParserBase ParserDecl PostLib.
Open Scope nat_scope.

Section BD.
Variable P : Type.

Theorem build_loop_one_per_declarator : forall ds spec it tns (s: pstate P) decls spec' s',
  build_loop P spec it tns ds s = Ok ((decls, spec'), s') ->
  Forall2 (fun d r => exists sp sp' sa sb, build_one P sp it tns d sa = Ok ((r, sp'), sb)) ds decls.
Proof.
  induction ds as [|d ds IH]; intros spec it tns s decls spec' s' H; cbn [build_loop] in H.
  - apply ret_Ok in H as [[= -> _] _]. constructor.
  - apply bind_Ok in H as ([r sp1] & s1 & E1 & H). apply bind_Ok in H as ([rs sp2] & s2 & E2 & H). apply ret_Ok in H as [[= -> _] _].
    constructor; [exists spec, sp1, s, s1; exact E1|]. eapply IH; exact E2.
Qed.

Corollary build_loop_length : forall ds spec it tns (s: pstate P) decls spec' s',
  build_loop P spec it tns ds s = Ok ((decls, spec'), s') -> length decls = length ds.
Proof.
  intros ds spec it tns s decls spec' s' H. apply build_loop_one_per_declarator in H.
  induction H; cbn [length]; congruence.
Qed.
End BD.
