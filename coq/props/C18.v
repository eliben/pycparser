(* C18 - structurally malformed input is always rejected
   Property theorems only. The single-input statements below are checked by the kernel on the whole-pipeline model
   (lexer -> token stream -> parser -> transforms), proofs in proofs/RejectExamples.v; the others restate theorems of the proof files (named in the proof under each). *)
From Coq Require Import List NArith Bool Arith.
Import ListNotations.
From PV Require Import Regex Base LexTables NodeModel ParserBase ParserDecl ParserMain Api RejectExamples UnicodeTables PyRepr Lexer RejectProofs ConsumeProofs ConsumeTheorem StrayProofs.

(* a stray '@' is rejected at its own position *)
Theorem C18_stray_at :
  outcome_str (s2l "int x @ = 1;") = s2l "E|f.c:1:7: Illegal character '@'".
Proof. exact ex_C18_stray_at. Qed.
Print Assumptions C18_stray_at.

(* a comment is not a token *)
Theorem C18_comment :
  outcome_str (s2l "int x; /* c */") = s2l "E|f.c:1:8: Comments are not supported, see https://github.com/eliben/pycparser#3using.".
Proof. exact ex_C18_comment. Qed.
Print Assumptions C18_comment.

(* a directive other than #line / #pragma is rejected *)
Theorem C18_directive :
  outcome_str (s2l "#define X 1
int x;") = s2l "E|f.c:1:1: Directives not supported yet".
Proof. exact ex_C18_directive. Qed.
Print Assumptions C18_directive.

(* a deleted ] is rejected *)
Theorem C18_missing_bracket :
  outcome_str (s2l "int f(int a) { return a[1; }") = s2l "E|f.c:1:26: before: ;".
Proof. exact ex_C18_missing_bracket. Qed.
Print Assumptions C18_missing_bracket.

(* a duplicated { is rejected *)
Theorem C18_extra_brace :
  outcome_str (s2l "int f(void) { { return 1; }") = s2l "E|f.c: At end of input".
Proof. exact ex_C18_extra_brace. Qed.
Print Assumptions C18_extra_brace.

(* a bracket of the wrong kind is rejected *)
Theorem C18_swapped_kind :
  outcome_str (s2l "int f(void) { return g(1]; }") = s2l "E|f.c:1:25: before: ]".
Proof. exact ex_C18_swapped_kind. Qed.
Print Assumptions C18_swapped_kind.

(* For ALL inputs: if parse() succeeds on the whole pipeline model then every item the lexer produced
   was a token - no "Illegal character", no malformed literal, no comment, no bad directive error was
   reported and skipped - and every token was delivered to the parser (proved by one invariant argument
   over all 71 mutually recursive productions and every helper). *)
Theorem C18_parse_ok_all_tokens : forall (P: Type) fuel items eof file ast s',
  parse_tokens P fuel (init_pstate P items eof file) = Ok (ast, s') ->
  forallb (is_tok P) items = true /\ raw P s' = [].
Proof. exact parse_ok_all_tokens. Qed.
Print Assumptions C18_parse_ok_all_tokens.

Theorem C18_parse_ok_no_lexer_error : forall text file r,
  run_parse text file = Ok r ->
  forallb is_rtok (fst (fst (raw_lex (S (length text)) (init_lexst file) text))) = true.
Proof. exact parse_ok_no_lexer_error. Qed.
Print Assumptions C18_parse_ok_no_lexer_error.

(* an error item cannot be skipped: asking for one more token raises ParseError at exactly its position *)
Theorem C18_deliver_error_item : forall (P: Type) (s: pstate P) msg p f r,
  raw P s = PErr P msg p f :: r -> deliver1 P s = Err (L_coord P (mkCoord P f p)) msg.
Proof. exact deliver_error_item. Qed.
Print Assumptions C18_deliver_error_item.

(* a character that starts no token becomes an "Illegal character" error item at its line and column *)
Theorem C18_illegal_char_reported : forall n0 st c rest,
  choose_best n0 (c :: rest) = None ->
  match_token n0 st (c :: rest) =
    ([RErr (msg_illegal c) (l_lineno st) (l_pos st - l_line_start st + 1)%N (l_file st)],
     mkLex (l_pos st + 1)%N (l_line_start st) (l_lineno st) (l_file st), rest).
Proof. exact illegal_char_reported. Qed.
Print Assumptions C18_illegal_char_reported.

(* '@', '`' and '\' can never start a token: wherever the lexer model stands in front of one of them
   (any state, any following text) it emits error items only - every rule of the regenerated table whose words
   can start with such a character is an error rule, and no fixed token starts with one.  With
   C18_parse_ok_no_lexer_error: such a text is rejected. *)
Theorem C18_stray_char_is_reported : forall n0 st c rest, In c STRAY ->
  let items := fst (fst (lex_iter n0 st (c :: rest))) in items <> [] /\ forallb is_err items = true.
Proof. exact stray_char_is_reported. Qed.
Print Assumptions C18_stray_char_is_reported.
