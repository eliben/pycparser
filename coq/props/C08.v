(* C08 - regenerated C means the same as the original to a C compiler
   Property theorems only. The single-input statements below are checked by the kernel on the whole-pipeline model
   (lexer -> token stream -> parser -> transforms), proofs in proofs/RegenExamples.v; the others restate theorems of the proof files (named in the proof under each). *)
From Coq Require Import List NArith Bool Arith.
Import ListNotations.
From PV Require Import Regex Base LexTables NodeModel ParserBase ParserDecl ParserMain Api RegenExamples Generator ParamProofs GenParam.

(* the regenerated text of a declaration list: every specifier, declarator and initializer token is there, in order *)
Theorem C08_regen_decls :
  regen false (s2l "static const int a = 1, *b[3]; int (*fp)(int, char *); struct S { int x : 3; } s = { .x = 1 };") = Some (s2l "static const int a = 1;
static const int *b[3];
int (*fp)(int, char *);
struct S
{
  int x : 3;
} s = {.x = 1};
").
Proof. exact ex_C08_regen_decls. Qed.
Print Assumptions C08_regen_decls.

(* operands keep their grouping (default configuration: every non-simple operand parenthesised) *)
Theorem C08_regen_exprs :
  regen false (s2l "int f(int a, int b) { return a - (b - a) + a * (b + 1) / (a ? b : -a) + sizeof(int) + (int)a % b; }") = Some (s2l "int f(int a, int b)
{
  return (((a - (b - a)) + ((a * (b + 1)) / ((a) ? (b) : (-a)))) + (sizeof(int))) + (((int) a) % b);
}

").
Proof. exact ex_C08_regen_exprs. Qed.
Print Assumptions C08_regen_exprs.

(* reduce_parentheses keeps exactly the parentheses the precedence levels require *)
Theorem C08_regen_exprs_rp :
  regen true (s2l "int f(int a, int b) { return a - (b - a) + a * (b + 1) - (a - b) - 1; }") = Some (s2l "int f(int a, int b)
{
  return a - (b - a) + a * (b + 1) - (a - b) - 1;
}

").
Proof. exact ex_C08_regen_exprs_rp. Qed.
Print Assumptions C08_regen_exprs_rp.

(* statements: nothing dropped, duplicated or reordered *)
Theorem C08_regen_stmts :
  regen false (s2l "void g(int n) { for (int i = 0; i < n; i++) if (i) continue; else break; switch (n) { case 1: case 2: n = 1; break; default: ; } }") = Some (s2l "void g(int n)
{
  for (int i = 0; i < n; i++)
    if (i)
    continue;
  else
    break;

  switch (n)
  {
    case 1:

    case 2:
      n = 1;
      break;

    default:
      ;

  }

}

").
Proof. exact ex_C08_regen_stmts. Qed.
Print Assumptions C08_regen_stmts.

(* witness (known finding): an identifier array designator comes back as a member designator *)
Theorem C08_designator_identifier_refuted :
  regen false (s2l "enum { N = 1 }; int a[3] = { [N] = 1 };") = Some (s2l "enum 
{
  N = 1
};
int a[3] = {.N = 1};
").
Proof. exact ex_C08_designator_identifier_refuted. Qed.
Print Assumptions C08_designator_identifier_refuted.

(* witness (known finding): the struct body is emitted once per declarator *)
Theorem C08_struct_body_twice_refuted :
  regen false (s2l "struct S { int a; } x, y;") = Some (s2l "struct S
{
  int a;
} x;
struct S
{
  int a;
} y;
").
Proof. exact ex_C08_struct_body_twice_refuted. Qed.
Print Assumptions C08_struct_body_twice_refuted.

(* what the generator emits does not depend on coordinates (all ASTs) - see C07 *)
Theorem C08_gen_ignores_coords : forall (A B: Type) (g: A -> B) rp fuel (v: value A),
  generate B rp fuel (vmap A B g v) = match generate A rp fuel v with
                                       | GOk x => GOk x | GCrash => GCrash | GFuel => GFuel end.
Proof. exact gen_ignores_coords. Qed.
Print Assumptions C08_gen_ignores_coords.
