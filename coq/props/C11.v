(* C11 - coordinates point at the real source location of every construct and error.
   Property theorems only; proofs are in proofs/ParamProofs.v. *)
From Coq Require Import List NArith Bool Arith.
Import ListNotations.
From PV Require Import Regex Base LexTables NodeModel ParserBase ParserDecl ParserMain ParamProofs.

(* Provenance: every position and file name inside any coordinate of the AST,
   and inside the location of any ParseError, is one the parser was given (the
   position of a delivered token / error item, the file name in force after
   some item, or the initial / final file name).  The parser cannot invent,
   add to, or combine positions. *)
Theorem C11_provenance : forall (P: Type) (ok: P -> Prop) fuel items eof file,
  Forall (item_ok P ok) items -> ok eof -> ok file -> outcome_ok P ok (parse_items fuel items eof file).
Proof. exact coord_provenance. Qed.
Print Assumptions C11_provenance.

(* identifiers, constants and operators always carry a coordinate: every node returned by any of thirteen
   expression productions of the whole-parser model (and every Compound) has coord = Some c - for every token
   stream, state and fuel.  One mutual induction: a node's coordinate comes from a token or from an operand
   that has one by induction. *)
From PV Require Import AstDefs AstSpec AstImpl PyRepr PostLib CoordProofs.
Theorem C11_expression_has_coordinate : forall (P: Type) f,
  post P (fun v => exists c, get_coord P v = Some (Some c)) (p_expression P f).
Proof. exact expression_has_coordinate. Qed.
Print Assumptions C11_expression_has_coordinate.

Theorem C11_all_expression_productions_have_coordinates : forall (P: Type) f, ALL P f.
Proof. exact all_have_coordinates. Qed.
Print Assumptions C11_all_expression_productions_have_coordinates.

(* identifiers and constants: exactly the token that spells them (proofs/CoordTokens.v).  For every parser state, whenever
   one of the three producers of identifier / literal nodes returns, the call consumed exactly the next token t of the
   stream (advance from the same state returns t and the same final state), the node spells tv t and its coordinate is
   tp t - the position the lexer gave to that very token (C11_provenance: a position of the input) - in the file in force *)
From PV Require Import CoordTokens.
Theorem C11_identifier_is_its_token : forall (P: Type) (s: pstate P) N s', p_identifier P s = Ok (N, s') ->
  exists t, advance P s = Ok (t, s') /\ tk t = K_ID /\ N = VNode C_ID [VStr (tv t)] (Some (mkCoord P (curfile P s') (tp t))).
Proof. exact identifier_is_its_token. Qed.
Print Assumptions C11_identifier_is_its_token.

Theorem C11_identifier_or_typeid_is_its_token : forall (P: Type) (s: pstate P) N s', p_identifier_or_typeid P s = Ok (N, s') ->
  exists t, advance P s = Ok (t, s') /\ (tk t = K_ID \/ tk t = K_TYPEID) /\ N = VNode C_ID [VStr (tv t)] (Some (mkCoord P (curfile P s') (tp t))).
Proof. exact identifier_or_typeid_is_its_token. Qed.
Print Assumptions C11_identifier_or_typeid_is_its_token.

Theorem C11_constant_is_its_token : forall (P: Type) (s: pstate P) N s', p_constant P s = Ok (N, s') ->
  exists t ty, advance P s = Ok (t, s') /\ N = VNode C_Constant [VStr ty; VStr (tv t)] (Some (mkCoord P (curfile P s') (tp t))).
Proof. exact constant_is_its_token. Qed.
Print Assumptions C11_constant_is_its_token.
