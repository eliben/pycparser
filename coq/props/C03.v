(* C03 - declaration ASTs encode C declarator semantics for every declared name
   Property theorems only. The single-input statements below are checked by the kernel on the whole-pipeline model
   (lexer -> token stream -> parser -> transforms), proofs in proofs/DeclExamples.v; the others restate theorems of the proof files (named in the proof under each). *)
From Coq Require Import List NArith Bool Arith.
Import ListNotations.
From PV Require Import Regex Base LexTables NodeModel ParserBase ParserDecl ParserMain Api DeclExamples AstSpec DeclProofs DeclRefine BuildDecls.

(* array of pointers to functions returning pointer to int: derivations from the identifier outward *)
Theorem C03_inside_out :
  outcome_str (s2l "int *(*fp[3])(char, int *);") = s2l "OK|(FileAST [(Decl 'fp' [] [] [] [] (ArrayDecl (PtrDecl [] (FuncDecl (ParamList [(Typename None [] None (TypeDecl None [] None (IdentifierType ['char']))),(Typename None [] None (PtrDecl [] (TypeDecl None [] None (IdentifierType ['int']))))]) (PtrDecl [] (TypeDecl 'fp' [] None (IdentifierType ['int']))))) (Constant 'int' '3') []) None None)])".
Proof. exact ex_C03_inside_out. Qed.
Print Assumptions C03_inside_out.

(* specifiers shared by several declarators apply to each *)
Theorem C03_shared_specifiers :
  outcome_str (s2l "static const int a, *b, c[2];") = s2l "OK|(FileAST [(Decl 'a' ['const'] [] ['static'] [] (TypeDecl 'a' ['const'] None (IdentifierType ['int'])) None None),(Decl 'b' ['const'] [] ['static'] [] (PtrDecl [] (TypeDecl 'b' ['const'] None (IdentifierType ['int']))) None None),(Decl 'c' ['const'] [] ['static'] [] (ArrayDecl (TypeDecl 'c' ['const'] None (IdentifierType ['int'])) (Constant 'int' '2') []) None None)])".
Proof. exact ex_C03_shared_specifiers. Qed.
Print Assumptions C03_shared_specifiers.

(* _Atomic(T) means the _Atomic-qualified T *)
Theorem C03_atomic_specifier :
  outcome_str (s2l "_Atomic(int) x;") = s2l "OK|(FileAST [(Decl 'x' ['_Atomic'] [] [] [] (TypeDecl 'x' ['_Atomic'] None (IdentifierType ['int'])) None None)])".
Proof. exact ex_C03_atomic_specifier. Qed.
Print Assumptions C03_atomic_specifier.

(* witness: with several declarators the shared _Atomic(...) node is mutated - the second declaration is named x as well *)
Theorem C03_atomic_shared_refuted :
  outcome_str (s2l "_Atomic(int) x, *p;") = s2l "OK|(FileAST [(Decl 'x' ['_Atomic'] [] [] [] (TypeDecl 'x' ['_Atomic'] None (IdentifierType ['int'])) None None),(Decl 'p' ['_Atomic'] [] [] [] (PtrDecl [] (TypeDecl 'x' ['_Atomic'] None (IdentifierType ['int']))) None None)])".
Proof. exact ex_C03_atomic_shared_refuted. Qed.
Print Assumptions C03_atomic_shared_refuted.

(* _type_modify_decl splices the modifier chain between the declarator's own chain and its TypeDecl,
   for a declarator chain and a modifier chain (pointer prefix, array / function suffix) of ANY length *)
Theorem C03_modify_splice : forall (P: Type) ld fs co lm fuel s, lm <> [] -> (length ld + length lm <= fuel)%nat ->
  type_modify_decl P fuel (build P ld (typedecl P fs co)) (build P lm VNone) s
  = Ok (build P (ld ++ lm) (typedecl P fs co), s).
Proof. exact modify_splice. Qed.
Print Assumptions C03_modify_splice.

(* whenever _type_modify_decl returns at all, it returns that splice - no bound on the chain lengths *)
Theorem C03_modify_ok : forall (P: Type) fuel ld fs co lm (s: pstate P) r s', lm <> [] ->
  type_modify_decl P fuel (build P ld (typedecl P fs co)) (build P lm VNone) s = Ok (r, s') ->
  r = build P (ld ++ lm) (typedecl P fs co) /\ s' = s.
Proof. exact modify_ok. Qed.
Print Assumptions C03_modify_ok.

(* the declarator productions of the whole-parser model (pointer_opt direct-declarator, ( declarator ),
   [..] and (..) suffixes; ParserMain.p_declarator_kind / p_direct_declarator / p_decl_suffixes), for every
   token stream, state and fuel: the node returned is the chain of the derivations C99 6.7.5.1-3 assigns to the
   declarator D that was read (RunK: which tokens and sub-productions, in which order), applied from the
   identifier outwards - suffixes left to right, then the pointer prefix with the star nearest the
   identifier outermost, a parenthesised declarator first - ending in the TypeDecl made from the identifier *)
Theorem C03_declarator_refines : forall (P: Type) f kid ap s r s',
  p_declarator_kind P f kid ap s = Ok (r, s') ->
  exists D, RunK P kid ap s D s' /\ r = build P (derivs P D) (leaf P D).
Proof. exact declarator_refines. Qed.
Print Assumptions C03_declarator_refines.

(* `* q1 * q2 ... *qn`: the pointer chain has the LAST star outermost (pointer nearest the identifier) *)
Theorem C03_pointer_order : forall (P: Type) f (s s': pstate P) p, p_pointer P f s = Ok (Some p, s') ->
  exists stars, stars <> [] /\ p_pointer_stars P f s = Ok (stars, s') /\ p = build P (rev (map (mkptr P) stars)) VNone.
Proof. exact p_pointer_ok. Qed.
Print Assumptions C03_pointer_order.

(* "each declared entity gets its own Decl": the loop of _build_declarations over a declarator list of ANY length
   returns exactly one node per declarator, in source order, the i-th built by build_one from the i-th declarator *)
Theorem C03_one_decl_per_declarator : forall (P: Type) ds spec it tns (s: pstate P) decls spec' s',
  build_loop P spec it tns ds s = Ok ((decls, spec'), s') ->
  Forall2 (fun d r => exists sp sp' sa sb, build_one P sp it tns d sa = Ok ((r, sp'), sb)) ds decls.
Proof. exact build_loop_one_per_declarator. Qed.
Print Assumptions C03_one_decl_per_declarator.

(* COMPLETENESS for the simplest declarations, on the whole-parser model (proofs/DeclTrip.v): for every non-empty run T of simple
   type-specifier keywords, every identifier x and every initializer the assignment-expression level parses back (InitOK: none, or
   `= e`), p_declaration turns the tokens `T x [= e] ;` - from any state whose scope stack holds no typedef name - into exactly ONE Decl
   named x whose type is TypeDecl(x) over ONE IdentifierType listing the keywords of T in source order (the base type exactly as
   spelled), with the initializer in its slot, no qualifiers / storage / function specifiers / alignment / bit-field width. *)
From PV Require StreamLib RoundTrip DeclTrip.
Theorem C03_plain_declaration : forall (P: Type) ty x ki Xi, ty <> [] ->
  Forall (fun kv => ParserBase.kind_in (fst kv) ParserTables.tbl_TYPE_SPEC_SIMPLE = true) ty -> DeclTrip.InitOK P ki Xi ->
  forall (s: ParserBase.pstate P) le (stop: ParserBase.tok P) l0, RoundTrip.Spell P le (DeclTrip.dtoks ty x ki) -> StreamLib.Up P s (le ++ stop :: l0) ->
  StreamLib.NoTD (ParserBase.scopes P s) ->
  exists f0 Ns s', (forall f, (f0 <= f)%nat -> ParserMain.p_declaration P f s = ParserBase.Ok (Ns, s')) /\ StreamLib.Up P s' (stop :: l0) /\
    map (@RoundTrip.strip (ParserBase.coord P)) Ns = [DeclTrip.dembed ty x Xi] /\ StreamLib.Ran P s s' (length le).
Proof. exact DeclTrip.decl_run. Qed.
Print Assumptions C03_plain_declaration.

(* "specifiers shared by several declarators apply to each of them": the declaration `T x1 [= e1] , x2 [= e2] , ... ;` with ANY number of
   declarators becomes one Decl per declarator, in source order, each named after its declarator, each with the type T spells and its
   own initializer (proofs/DeclTrip.v: p_init_declarators_more by induction on the list, build_loop / build_one per declarator - the shared
   specifier is handed on unchanged - and every declared name enters the scope). *)
Theorem C03_declarator_list : forall (P: Type) ty x ki Xi ds, ty <> [] ->
  Forall (fun kv => ParserBase.kind_in (fst kv) ParserTables.tbl_TYPE_SPEC_SIMPLE = true) ty -> DeclTrip.InitOK P ki Xi ->
  Forall (fun d => DeclTrip.InitOK P (snd (fst d)) (snd d)) ds ->
  forall (s: ParserBase.pstate P) le (stop: ParserBase.tok P) l0, RoundTrip.Spell P le (DeclTrip.dltoks ty x ki ds) -> StreamLib.Up P s (le ++ stop :: l0) ->
  StreamLib.NoTD (ParserBase.scopes P s) ->
  exists f0 Ns s', (forall f, (f0 <= f)%nat -> ParserMain.p_declaration P f s = ParserBase.Ok (Ns, s')) /\ StreamLib.Up P s' (stop :: l0) /\
    map (@RoundTrip.strip (ParserBase.coord P)) Ns = DeclTrip.dembed ty x Xi :: map (fun d => DeclTrip.dembed ty (fst (fst d)) (snd d)) ds /\
    StreamLib.Ran P s s' (List.length le).
Proof. exact DeclTrip.decl_list_run. Qed.
Print Assumptions C03_declarator_list.
