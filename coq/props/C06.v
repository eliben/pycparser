(* C06 - parse() either returns a FileAST or raises ParseError - nothing else
   Property theorems only. The single-input statements below are checked by the kernel on the whole-pipeline model
   (lexer -> token stream -> parser -> transforms), proofs in proofs/CrashExamples.v; the others restate theorems of the proof files (named in the proof under each). *)
From Coq Require Import List NArith Bool Arith.
Import ListNotations.
From PV Require Import Regex Base LexTables NodeModel ParserBase ParserDecl ParserMain Api CrashExamples LexerProofs LexNoCrash.

(* a stray } is a located ParseError (was an AssertionError before the fix) *)
Theorem C06_stray_rbrace :
  outcome_str (s2l "}") = s2l "E|f.c: Unmatched '}'".
Proof. exact ex_C06_stray_rbrace. Qed.
Print Assumptions C06_stray_rbrace.

(* two type specifiers where the last is not a plain name: ParseError (was AttributeError) *)
Theorem C06_int_struct :
  outcome_str (s2l "int struct T;") = s2l "E|f.c:1:1: Invalid declaration".
Proof. exact ex_C06_int_struct. Qed.
Print Assumptions C06_int_struct.

(* a multi-character constant made of suffix letters is an int constant (was ValueError) *)
Theorem C06_multichar :
  outcome_str (s2l "int x = 'uu';") = s2l "OK|(FileAST [(Decl 'x' [] [] [] [] (TypeDecl 'x' [] None (IdentifierType ['int'])) (Constant 'int' ""'uu'"") None)])".
Proof. exact ex_C06_multichar. Qed.
Print Assumptions C06_multichar.

(* the message starts with a source location (was '?: ...') *)
Theorem C06_located :
  outcome_str (s2l "const;") = s2l "E|f.c: Invalid declaration".
Proof. exact ex_C06_located. Qed.
Print Assumptions C06_located.

(* termination of the lexing half: tokenising any text finishes within |text|+1 iterations *)
Theorem C06_lex_terminates : forall text file,
  snd (Lexer.raw_lex (S (length text)) (Lexer.init_lexst file) text) = true.
Proof. exact lex_terminates. Qed.
Print Assumptions C06_lex_terminates.

(* the lexer never trips its own `assert msg is not None`: for every text the item stream has no crash item
   (every error rule of the regenerated rule table carries a message) *)
Theorem C06_lex_no_crash : forall fuel st rest, Lexer.has_crash (fst (fst (Lexer.raw_lex fuel st rest))) = false.
Proof. exact lex_no_crash. Qed.
Print Assumptions C06_lex_no_crash.
