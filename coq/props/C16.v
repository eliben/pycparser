(* C16 - parsing work grows linearly with input size - no backtracking blow-up
   Property theorems only. The single-input statements below are checked by the kernel on the whole-pipeline model
   (lexer -> token stream -> parser -> transforms), proofs in proofs/CostExamples.v; the others restate theorems of the proof files (named in the proof under each). *)
From Coq Require Import List NArith Bool Arith.
Import ListNotations.
From PV Require Import Regex Base LexTables NodeModel ParserBase ParserDecl ParserMain Api CostExamples UnicodeTables PyRepr Lexer LexerProofs BinaryRefine StreamLib RoundTrip RoundTripGen RoundTripX StmtTrip.

(* witness of exponential growth: nesting depth 1 *)
Theorem C16_complit_1 :
  ticks_of (s2l "int x = (int[1]){0};") = 20%N.
Proof. exact ex_C16_complit_1. Qed.
Print Assumptions C16_complit_1.

(* witness of exponential growth: nesting depth 2 *)
Theorem C16_complit_2 :
  ticks_of (s2l "int x = (int[(int[1]){0}]){0};") = 48%N.
Proof. exact ex_C16_complit_2. Qed.
Print Assumptions C16_complit_2.

(* witness of exponential growth: nesting depth 3 *)
Theorem C16_complit_3 :
  ticks_of (s2l "int x = (int[(int[(int[1]){0}]){0}]){0};") = 104%N.
Proof. exact ex_C16_complit_3. Qed.
Print Assumptions C16_complit_3.

(* witness of exponential growth: nesting depth 4 *)
Theorem C16_complit_4 :
  ticks_of (s2l "int x = (int[(int[(int[(int[1]){0}]){0}]){0}]){0};") = 216%N.
Proof. exact ex_C16_complit_4. Qed.
Print Assumptions C16_complit_4.

(* witness of exponential growth: nesting depth 5 *)
Theorem C16_complit_5 :
  ticks_of (s2l "int x = (int[(int[(int[(int[(int[1]){0}]){0}]){0}]){0}]){0};") = 440%N.
Proof. exact ex_C16_complit_5. Qed.
Print Assumptions C16_complit_5.

(* witness of exponential growth: nesting depth 6 *)
Theorem C16_complit_6 :
  ticks_of (s2l "int x = (int[(int[(int[(int[(int[(int[1]){0}]){0}]){0}]){0}]){0}]){0};") = 888%N.
Proof. exact ex_C16_complit_6. Qed.
Print Assumptions C16_complit_6.

(* a linear family at k=8 *)
Theorem C16_linear_8 :
  ticks_of (s2l "int v0 = 0; int v1 = 1; int v2 = 2; int v3 = 3; int v4 = 4; int v5 = 5; int v6 = 6; int v7 = 7;") = 48%N.
Proof. exact ex_C16_linear_8. Qed.
Print Assumptions C16_linear_8.

(* ... and at k=16: exactly twice the token reads *)
Theorem C16_linear_16 :
  ticks_of (s2l "int v0 = 0; int v1 = 1; int v2 = 2; int v3 = 3; int v4 = 4; int v5 = 5; int v6 = 6; int v7 = 7; int v8 = 8; int v9 = 9; int v10 = 10; int v11 = 11; int v12 = 12; int v13 = 13; int v14 = 14; int v15 = 15;") = 96%N.
Proof. exact ex_C16_linear_16. Qed.
Print Assumptions C16_linear_16.

(* the lexer's loop runs at most once per character: |text|+1 iterations always suffice (each removes a non-empty prefix) *)
Theorem C16_lex_iterations_linear : forall text file,
  snd (raw_lex (S (length text)) (init_lexst file) text) = true.
Proof. exact lex_terminates. Qed.
Print Assumptions C16_lex_iterations_linear.

From Coq Require Import ZArith.
(* the precedence-climbing loops of the parser model never re-read a token: for every token stream, the
   token reads (_TokenStream.next() calls, speculative ones included) of a whole binary expression are one
   per operator plus what the operand runs spend themselves (n) - no backtracking in operator parsing *)
Theorem C16_binary_expression_cost : forall (P: Type) f lhs0 s t s',
  p_binary_climb P f 0 lhs0 s = Ok (t, s') ->
  exists l n, SeqT P s l n s' /\ Z.of_N (ticks P s') = (Z.of_N (ticks P s) + Z.of_nat (length l) + n)%Z.
Proof. exact binary_expression_cost. Qed.
Print Assumptions C16_binary_expression_cost.

(* the whole expression parser is linear on everything the generator prints for the expression language [ex]
   (identifiers, constants, unary / binary / conditional / assignment / comma operators, ++ / --, sizeof e,
   subscripts, member accesses, calls, casts and sizeof(T) over simple type names, parentheses as the generator places them), of ANY size and nesting depth:
   whenever the whole-parser model finds the tokens [le] of such an expression followed by a token that cannot
   continue it, p_expression returns, has consumed exactly these |le| tokens (idx) and has called
   _TokenStream.next() at most 3 |le| times (ticks), the speculative "( type-name )" attempts included: a token
   is re-read at most twice.  (Compound literals are outside [ex]: see the C16_complit_* witnesses.) *)
Theorem C16_generated_expression_linear : forall (P: Type) rp (e: ex), wf e ->
  forall (s: ParserBase.pstate P) le stop l0, Spell P le (xt rp e) -> Up P s (le ++ stop :: l0) -> estop (tk stop) = true ->
  exists f0 N s', (forall f, (f0 <= f)%nat -> p_expression P f s = Ok (N, s')) /\ Up P s' (stop :: l0) /\
    idx P s' = (idx P s + length le)%nat /\ (N.to_nat (ticks P s') <= N.to_nat (ticks P s) + 3 * length le)%nat.
Proof.
  intros P rp e Hw s le stop l0 HS HU Hst.
  destruct (parse_of_generated_expression_cost P rp e Hw s le stop l0 HS HU Hst) as [f0 [N [s' [H [HU' [_ [Hi [Ht _]]]]]]]].
  exists f0, N, s'. split; [exact H|split; [exact HU'|split; [exact Hi|exact Ht]]].
Qed.
Print Assumptions C16_generated_expression_linear.

(* ... and the statement parser is linear on everything the generator prints for the statement language [st]
   (expression statements, empty statements, return / break / continue / goto, if / if-else, while, do-while,
   for with optional clauses, nested blocks) over those expressions, of ANY size and nesting depth: in a block-item
   position p_statement consumes exactly the |le| generated tokens and calls next() at most 3 |le| times *)
Theorem C16_generated_statement_linear : forall (P: Type) rp (x: st), swf x ->
  forall (s: ParserBase.pstate P) le stop l0, Spell P le (stoks rp x) -> Up P s (le ++ stop :: l0) ->
  (sopen x = true -> kind_eqb (tk stop) K_ELSE = false) ->
  exists f0 N s', (forall f, (f0 <= f)%nat -> p_statement P f s = Ok (N, s')) /\ Up P s' (stop :: l0) /\
    idx P s' = (idx P s + length le)%nat /\ (N.to_nat (ticks P s') <= N.to_nat (ticks P s) + 3 * length le)%nat.
Proof.
  intros P rp x Hw s le stop l0 HS HU Hop.
  destruct (parse_of_generated_block_item_cost P rp x Hw s le stop l0 HS HU Hop) as [f0 [N [s' [H [HU' [_ [Hi [Ht _]]]]]]]].
  exists f0, N, s'. split; [exact H|split; [exact HU'|split; [exact Hi|exact Ht]]].
Qed.
Print Assumptions C16_generated_statement_linear.

(* ... and with declarations `T x;` / `T x = e;` among the block items (the declarator's name is found by a speculative scan that is
   always reset - _peek_declarator_name_info - so the declared identifier is read twice): still at most 3 reads per token *)
Theorem C16_generated_statement_with_declarations_linear : forall (P: Type) rp (x: st), swfD x ->
  forall (s: ParserBase.pstate P) le stop l0, Spell P le (stoks rp x) -> Up P s (le ++ stop :: l0) ->
  (sopen x = true -> kind_eqb (tk stop) K_ELSE = false) -> NoTD (ParserBase.scopes P s) ->
  exists f0 N s', (forall f, (f0 <= f)%nat -> p_statement P f s = Ok (N, s')) /\ Up P s' (stop :: l0) /\
    idx P s' = (idx P s + length le)%nat /\ (N.to_nat (ticks P s') <= N.to_nat (ticks P s) + 3 * length le)%nat.
Proof. exact statements_with_decls_linear. Qed.
Print Assumptions C16_generated_statement_with_declarations_linear.

(* ... and the WHOLE parse of a program (function definitions `T f ( ) { ... }` over that language, proofs/FuncTrip.v): parse_tokens,
   from the initial state of parse() to the end of the input, consumes all n tokens and calls next() at most 3 n times *)
From PV Require FuncTrip.
Theorem C16_generated_program_linear : forall (P: Type) rp (p: list FuncTrip.fdef), Forall FuncTrip.fwf p ->
  forall items le eof file, Spell P le (FuncTrip.prog_toks rp p) -> UpR P [[]] items le -> List.length items = List.length le ->
  exists f0 N s', (forall fu, (f0 <= fu)%nat -> parse_tokens P fu (init_pstate P items eof file) = Ok (N, s')) /\
    idx P s' = List.length le /\ (N.to_nat (ticks P s') <= 3 * List.length le)%nat.
Proof.
  intros P rp p Hp items le eof file HS HU Hl. destruct (FuncTrip.parse_of_generated_program P rp p Hp items le eof file HS HU Hl) as [f0 [N [s' [H [_ [Hi Ht]]]]]].
  exists f0, N, s'. split; [exact H|split; [exact Hi|exact Ht]].
Qed.
Print Assumptions C16_generated_program_linear.

(* ... also for translation units that mix file-scope object declarations and function definitions *)
Theorem C16_generated_unit_linear : forall (P: Type) rp (u: list FuncTrip.edecl), Forall FuncTrip.ewf u ->
  forall items le eof file, Spell P le (FuncTrip.unit_toks rp u) -> UpR P [[]] items le -> List.length items = List.length le ->
  exists f0 N s', (forall fu, (f0 <= fu)%nat -> parse_tokens P fu (init_pstate P items eof file) = Ok (N, s')) /\
    idx P s' = List.length le /\ (N.to_nat (ticks P s') <= 3 * List.length le)%nat.
Proof.
  intros P rp u Hu items le eof file HS HU Hl. destruct (FuncTrip.parse_of_generated_unit P rp u Hu items le eof file HS HU Hl) as [f0 [N [s' [H [_ [Hi Ht]]]]]].
  exists f0, N, s'. split; [exact H|split; [exact Hi|exact Ht]].
Qed.
Print Assumptions C16_generated_unit_linear.

(* the hypotheses of these theorems are satisfiable and the accounting is the model's own: on `( a + b ) * c ;`
   p_expression consumes the 7 tokens with 9 calls of next() (the parenthesis is read three times) *)
Theorem C16_linear_example :
  wf ex_cost_e /\ Spell nat ex_toks (xt false ex_cost_e) /\
  Up nat ex_state (ex_toks ++ [mkTok nat K_SEMI (s2l ";") 8]) /\ estop K_SEMI = true /\
  match p_expression nat 60 ex_state with Ok (_, s') => (idx nat s', ticks nat s') = (7%nat, 9%N) | _ => False end.
Proof. exact cost_hypotheses_satisfiable. Qed.
Print Assumptions C16_linear_example.
