(* C07 - generated C re-parses to the same AST (parse . generate . parse = parse)
   Property theorems only. The single-input statements below are checked by the kernel on the whole-pipeline model
   (lexer -> token stream -> parser -> transforms), proofs in proofs/GenExamples.v; the others restate theorems of the proof files (named in the proof under each). *)
From Coq Require Import List NArith Bool Arith.
Import ListNotations.
From PV Require Import Regex Base LexTables NodeModel ParserBase ParserDecl ParserMain Api GenExamples ParserTables GenTables CSpec TableProofs Generator ParamProofs GenParam ClimbProofs GenParen GenBinop ParserBase ParserMain StreamLib RoundTrip RoundTripGen RoundTripX GenExpr StmtTrip GenStmt.

(* parse . generate . parse = parse and second generation = first (default configuration) *)
Theorem C07_roundtrip_decls :
  roundtrip_ok false (s2l "typedef int T; static const T a = 1, *b[3], (*fp)(int, char *); struct S { int x : 3; T y; } s = { .x = 1, .y = 2 };") = true.
Proof. exact ex_C07_roundtrip_decls. Qed.
Print Assumptions C07_roundtrip_decls.

(* ... and with reduce_parentheses *)
Theorem C07_roundtrip_rp_decls :
  roundtrip_ok true (s2l "typedef int T; static const T a = 1, *b[3], (*fp)(int, char *); struct S { int x : 3; T y; } s = { .x = 1, .y = 2 };") = true.
Proof. exact ex_C07_roundtrip_rp_decls. Qed.
Print Assumptions C07_roundtrip_rp_decls.

(* parse . generate . parse = parse and second generation = first (default configuration) *)
Theorem C07_roundtrip_exprs :
  roundtrip_ok false (s2l "int f(int a, int b) { return (a + b) * (a - b) / (a ? b : -a) + sizeof(int) + (int)a % b << 2 >= (a & b | a ^ b) && !a || ~b; }") = true.
Proof. exact ex_C07_roundtrip_exprs. Qed.
Print Assumptions C07_roundtrip_exprs.

(* ... and with reduce_parentheses *)
Theorem C07_roundtrip_rp_exprs :
  roundtrip_ok true (s2l "int f(int a, int b) { return (a + b) * (a - b) / (a ? b : -a) + sizeof(int) + (int)a % b << 2 >= (a & b | a ^ b) && !a || ~b; }") = true.
Proof. exact ex_C07_roundtrip_rp_exprs. Qed.
Print Assumptions C07_roundtrip_rp_exprs.

(* parse . generate . parse = parse and second generation = first (default configuration) *)
Theorem C07_roundtrip_stmts :
  roundtrip_ok false (s2l "void g(int n) { for (int i = 0; i < n; i++) { if (i) continue; else break; } while (n--) ; do n++; while (n < 3); switch (n) { case 1: case 2: n = 1; break; default: ; } L: goto L; }") = true.
Proof. exact ex_C07_roundtrip_stmts. Qed.
Print Assumptions C07_roundtrip_stmts.

(* ... and with reduce_parentheses *)
Theorem C07_roundtrip_rp_stmts :
  roundtrip_ok true (s2l "void g(int n) { for (int i = 0; i < n; i++) { if (i) continue; else break; } while (n--) ; do n++; while (n < 3); switch (n) { case 1: case 2: n = 1; break; default: ; } L: goto L; }") = true.
Proof. exact ex_C07_roundtrip_rp_stmts. Qed.
Print Assumptions C07_roundtrip_rp_stmts.

(* parse . generate . parse = parse and second generation = first (default configuration) *)
Theorem C07_roundtrip_nested_ops :
  roundtrip_ok false (s2l "int h(int a, int b, int c) { return a - (b - c) + a * (b + c) - (a - b) - c + a / (b / c) + (a << b) + c; }") = true.
Proof. exact ex_C07_roundtrip_nested_ops. Qed.
Print Assumptions C07_roundtrip_nested_ops.

(* ... and with reduce_parentheses *)
Theorem C07_roundtrip_rp_nested_ops :
  roundtrip_ok true (s2l "int h(int a, int b, int c) { return a - (b - c) + a * (b + c) - (a - b) - c + a / (b / c) + (a << b) + c; }") = true.
Proof. exact ex_C07_roundtrip_rp_nested_ops. Qed.
Print Assumptions C07_roundtrip_rp_nested_ops.

(* witness (known finding): a for-init declaration with several declarators does not round-trip *)
Theorem C07_forinit_multi_refuted :
  roundtrip_ok false (s2l "void f(void){ for (int *p = 0, *q = 0; ; ) ; }") = false.
Proof. exact ex_C07_forinit_multi_refuted. Qed.
Print Assumptions C07_forinit_multi_refuted.

(* witness (known finding): an assignment whose lvalue is a comma expression does not round-trip *)
Theorem C07_assign_lvalue_refuted :
  roundtrip_ok false (s2l "void f(void){ (a, b) = 1; }") = false.
Proof. exact ex_C07_assign_lvalue_refuted. Qed.
Print Assumptions C07_assign_lvalue_refuted.

(* CGenerator never looks at coordinates: for EVERY AST, every renaming or erasure of its coordinates
   leaves the generated text (and the crash / final-indentation outcome) unchanged - by parametricity
   of the generator model (all visit_* methods) in the coordinate type *)
Theorem C07_gen_ignores_coords : forall (A B: Type) (g: A -> B) rp fuel (v: value A),
  generate B rp fuel (vmap A B g v) = match generate A rp fuel v with
                                       | GOk x => GOk x | GCrash => GCrash | GFuel => GFuel end.
Proof. exact gen_ignores_coords. Qed.
Print Assumptions C07_gen_ignores_coords.

(* the generator's precedence_map is the parser's _BINARY_PRECEDENCE, operator by operator *)
Theorem C07_precedence_mirrored :
  forallb (fun e => match punct_kind_l (fst e) with
                    | Some k => match prec_lookup k with Some p => Nat.eqb p (snd e) | None => false end
                    | None => false end) gen_precedence_map = true
  /\ List.length gen_precedence_map = List.length tbl_BINARY_PRECEDENCE.
Proof. exact generator_precedence_mirrors_parser. Qed.
Print Assumptions C07_precedence_mirrored.

(* visit_BinaryOp's parenthesisation, both settings of reduce_parentheses, every tree of binary operators
   over identifiers of any depth: the generator MODEL (all of Generator.v) prints exactly the rendering of
   the flat operand/operator sequence [flatten t] (an operand = an identifier or a parenthesised subtree),
   and the only tree the stratified C grammar (ClimbProofs.D, the grammar the parser model is proved to
   implement in C02_binary_expression_refines) assigns to that sequence is the tree it was printed from *)
Theorem C07_generator_binop_text : forall (C: Type) rp (t: gt str str), ops_known t -> is_leaf t = false ->
  forall fuel st, (2 * height t <= S fuel)%nat ->
  visit C rp fuel (emb C t) st = GOk (render rp (flatten str str gprec rp t), st) /\
  forall T, D (gt str str) str gprec 0 (Leaf (gt str str) str (fst (flatten str str gprec rp t))) (snd (flatten str str gprec rp t)) T
            <-> T = skel str str gprec rp t.
Proof. exact generator_binop_text. Qed.
Print Assumptions C07_generator_binop_text.

(* non-vacuity: a - (b - c) * d  with reduce_parentheses: the right operand keeps its parentheses, the product does not get any *)
Example C07_binop_example :
  let t := GBin str str (s2l "-") (GLeaf str str (s2l "a"))
             (GBin str str (s2l "*") (GBin str str (s2l "-") (GLeaf str str (s2l "b")) (GLeaf str str (s2l "c"))) (GLeaf str str (s2l "d"))) in
  generate nat true 10 (emb nat t) = GOk (s2l "a - (b - c) * d", Z0) /\ print true t = s2l "a - (b - c) * d".
Proof. vm_compute. split; reflexivity. Qed.

(* parse . generate = id at token level, for EVERY tree of binary operators over identifiers (any size, any shape,
   both settings of reduce_parentheses).  [kv rp t] is the token sequence (kind, spelling) of the text the
   generator prints for t (C07_generated_text_is_its_tokens below).  Whenever the WHOLE-PARSER model
   (ParserMain.p_expression: expression -> assignment (with its two-token look-ahead for `({`) -> conditional ->
   precedence climbing -> cast (speculative `( type-name )` attempt, mark / reset) -> unary -> postfix (second
   speculative attempt, compound-literal test, suffix loop) -> primary -> `( expression )` recursively) finds
   tokens with these kinds and spellings next in its input - delivered lazily through the buffered token stream,
   identifiers classified against the scope stack (StreamLib.Up) - followed by a token that cannot continue an
   expression, it returns, for all sufficiently large fuel, exactly the tree the text was generated from
   (coordinates erased) and has consumed exactly those tokens. *)
Theorem C07_parse_of_generated_tokens : forall (P: Type) rp (t: gt str str), ops_known t ->
  forall (s: ParserBase.pstate P) le stop l0, Spell P le (kv rp t) -> Up P s (le ++ stop :: l0) -> estop (tk stop) = true ->
  exists f0 N s', (forall f, (f0 <= f)%nat -> p_expression P f s = Ok (N, s')) /\ Up P s' (stop :: l0) /\ strip N = emb unit t.
Proof. exact parse_of_generated_tokens. Qed.
Print Assumptions C07_parse_of_generated_tokens.

(* the generated text is the concatenation of those spellings, with a blank on each side of each operator *)
Theorem C07_generated_text_is_its_tokens : forall rp (t: gt str str), ops_known t -> print rp t = text_of (kv rp t).
Proof. exact print_is_text. Qed.
Print Assumptions C07_generated_text_is_its_tokens.

(* the hypotheses are satisfiable: `( a + b ) * c ;` as the first items of a translation unit *)
Example C07_roundtrip_hypotheses_satisfiable :
  ops_known ex_tree /\ Spell nat ex_toks (kv false ex_tree) /\ Up nat ex_state (ex_toks ++ [mkTok nat K_SEMI (s2l ";") 8%nat]) /\
  estop K_SEMI = true /\ print false ex_tree = s2l "(a + b) * c".
Proof. exact roundtrip_hypotheses_satisfiable. Qed.

(* The same for a larger expression language [ex]: identifiers, integer / floating / character constants, binary
   operators, the prefix operators - + ! ~ * & ++ --, postfix ++ --, sizeof(expression), sizeof(type-name) and casts (type-name) e
   with a type name made of simple type-specifier keywords (`int`, `unsigned long`, ...), subscripts, member accesses
   (. and ->), function calls with any number of arguments, the conditional operator, all (compound) assignments and comma expressions, nested in any way and to any
   depth.  [xt rp e] is the token sequence of the generated text, with operands parenthesised exactly as visit_BinaryOp /
   visit_UnaryOp / visit_ArrayRef / visit_StructRef / visit_FuncCall / visit_TernaryOp / visit_Assignment /
   visit_ExprList / _visit_expr do.
   Parser side: whenever the whole-parser model finds these tokens followed by a token that cannot continue an
   expression, p_expression returns exactly e (coordinates erased) and has consumed exactly these tokens. *)
Theorem C07_parse_of_generated_expression : forall (P: Type) rp (e: ex), wf e ->
  forall (s: ParserBase.pstate P) le stop l0, Spell P le (xt rp e) -> Up P s (le ++ stop :: l0) -> estop (tk stop) = true ->
  exists f0 N s', (forall f, (f0 <= f)%nat -> p_expression P f s = Ok (N, s')) /\ Up P s' (stop :: l0) /\ strip N = embx e.
Proof. exact parse_of_generated_expression. Qed.
Print Assumptions C07_parse_of_generated_expression.

(* generator side: the generator MODEL prints [ptext rp e] for every such expression and leaves the indentation alone *)
Theorem C07_generator_prints_expression : forall (C: Type) rp (e: ex), wf e -> forall fuel st, (3 * size e <= fuel)%nat ->
  visit C rp fuel (embC C e) st = GOk (ptext rp e, st).
Proof. intros C rp e Hw. exact (visit_prints_x C rp (size e) e (le_n _) Hw). Qed.
Print Assumptions C07_generator_prints_expression.

(* ... and that text, blanks removed, is the concatenation of the spellings of the tokens [xt rp e] *)
Theorem C07_expression_text_is_its_tokens : forall rp (e: ex), wf e -> ids_nb e -> despace (ptext rp e) = spell (xt rp e).
Proof. intros rp e. exact (ptext_tokens rp (size e) e (le_n _)). Qed.
Print Assumptions C07_expression_text_is_its_tokens.

(* non-vacuity: a[i].f = -b * (c ? d : e), g(1, (x, y)) *)
Example C07_expression_example :
  wf ex_x /\ ids_nb ex_x /\
  visit nat false 80 (embC nat ex_x) Z0 = GOk (s2l "a[i].f = (-b) * ((c) ? (d) : (e)), g(1, (x, y))", Z0) /\
  map fst (xt false ex_x) = [K_ID; K_LBRACKET; K_ID; K_RBRACKET; K_PERIOD; K_ID; K_EQUALS; K_LPAREN; K_MINUS; K_ID; K_RPAREN; K_TIMES;
                             K_LPAREN; K_LPAREN; K_ID; K_RPAREN; K_CONDOP; K_LPAREN; K_ID; K_RPAREN; K_COLON; K_LPAREN; K_ID; K_RPAREN; K_RPAREN;
                             K_COMMA; K_ID; K_LPAREN; K_INT_CONST_DEC; K_COMMA; K_LPAREN; K_ID; K_COMMA; K_ID; K_RPAREN; K_RPAREN].
Proof. exact expression_example. Qed.

(* ... and with casts and sizeof of a type name *)
Example C07_cast_example :
  wf ex_c /\ ids_nb ex_c /\
  visit nat false 80 (embC nat ex_c) Z0 = GOk (s2l "((unsigned long) (a + 1)) * (sizeof(int))", Z0) /\
  map fst (xt false ex_c) = [K_LPAREN; K_LPAREN; K_UNSIGNED; K_LONG; K_RPAREN; K_LPAREN; K_ID; K_PLUS; K_INT_CONST_DEC; K_RPAREN; K_RPAREN; K_TIMES;
                             K_LPAREN; K_SIZEOF; K_LPAREN; K_INT; K_RPAREN; K_RPAREN].
Proof. exact cast_example. Qed.

(* STATEMENTS over that expression language: expression statements, `;`, return / break / continue / goto, labelled statements, if with and
   without else, while, do-while, for with every clause present or absent, and brace-enclosed blocks of statements (the
   scope stack that `{` and `}` push and pop at token delivery is threaded through StreamLib.Up), nested in any way.  Parser side:
   whenever p_pragmacomp_or_statement (the production behind every sub-statement position) finds the tokens [stoks rp x]
   of the generated text, it returns exactly x.  The only side conditions are C's own dangling-else rule: in swf the
   then-branch of an if WITH an else does not end in an if without one (CGenerator adds no braces), and an if without
   else is not followed by the token `else`. *)
Theorem C07_parse_of_generated_statement : forall (P: Type) rp (x: st), swf x ->
  forall (s: ParserBase.pstate P) le stop l0, Spell P le (stoks rp x) -> Up P s (le ++ stop :: l0) ->
  (sopen x = true -> kind_eqb (tk stop) K_ELSE = false) ->
  exists f0 N s', (forall f, (f0 <= f)%nat -> p_pragmacomp_or_statement P f s = Ok (N, s')) /\ Up P s' (stop :: l0) /\ strip N = embs x.
Proof. exact parse_of_generated_statement. Qed.
Print Assumptions C07_parse_of_generated_statement.

(* generator side: _generate_stmt(add_indent=True) prints [gst rp lv x] at indentation level lv and restores the level *)
Theorem C07_generator_prints_statement : forall (C: Type) rp (x: st), swf x -> forall fuel lv, (cost x < fuel)%nat ->
  generate_stmt C rp fuel (embS C x) true lv = GOk (gst rp lv x, lv).
Proof. exact gst_prints_nodecl. Qed.
Print Assumptions C07_generator_prints_statement.

(* ... and that text, blanks and newlines removed, is the concatenation of the spellings of [stoks rp x] *)
Theorem C07_statement_text_is_its_tokens : forall rp (x: st), sexprs (eok rp) x -> forall lv, despace2 (gst rp lv x) = spell (stoks rp x).
Proof. exact gst_tokens. Qed.
Print Assumptions C07_statement_text_is_its_tokens.

(* ... WITH DECLARATIONS: blocks, at any nesting depth, may contain the declarations `T x;` and `T x = e;` as block items (T a run of
   simple type-specifier keywords, e any expression of the language - CGenerator prints a comma expression in parentheses).
   Parser side (proofs/DeclTrip.v, StmtTrip.v): from every parser state whose scope stack holds no typedef name, p_statement parses
   [stoks rp x] back to exactly x - p_declaration_specifiers, the speculative declarator scan with its reset, p_declarator,
   p_initializer, _build_declarations / _fix_decl_name_type and the scope update are all walked through - and the scope stack
   is again free of typedef names afterwards.  Generator side (GenStmt.v): visit_Decl / _generate_decl / _generate_type print
   `T x = e`, _generate_stmt adds `;`. *)
Theorem C07_parse_of_generated_statement_with_declarations : forall (P: Type) rp (x: st), swfD x ->
  forall (s: ParserBase.pstate P) le stop l0, Spell P le (stoks rp x) -> Up P s (le ++ stop :: l0) ->
  (sopen x = true -> kind_eqb (tk stop) K_ELSE = false) -> NoTD (ParserBase.scopes P s) ->
  exists f0 N s', (forall f, (f0 <= f)%nat -> p_statement P f s = Ok (N, s')) /\ Up P s' (stop :: l0) /\ strip N = embs x /\
    NoTD (ParserBase.scopes P s').
Proof. exact parse_of_generated_statement_with_decls. Qed.
Print Assumptions C07_parse_of_generated_statement_with_declarations.

Theorem C07_generator_prints_statement_with_declarations : forall (C: Type) rp (x: st), swfD x -> forall fuel lv, (cost x < fuel)%nat ->
  generate_stmt C rp fuel (embS C x) true lv = GOk (gst rp lv x, lv).
Proof. exact gst_prints_decls. Qed.
Print Assumptions C07_generator_prints_statement_with_declarations.

(* non-vacuity, both sides on one program: `{ int x = 1; unsigned long y; y = x + 2; { char c = (x, y); } }` is printed like this by the
   generator model, the text is the concatenation of its tokens, and the whole-parser model started on these tokens returns the tree *)
Example C07_declaration_example :
  swfD ex_d /\ (exists t, generate_stmt nat false 80 (embS nat ex_d) true Z0 = GOk (t, Z0) /\ despace2 t = spell (stoks false ex_d)) /\
  match p_statement nat 100 ex_d_state with Ok (N, s') => strip N = embs ex_d | _ => False end.
Proof. exact decl_example_both. Qed.

(* non-vacuity: a for loop whose body is a block with an if / else-if ladder (return, break), a do-while over a nested block
   with an empty block inside, and a goto *)
Example C07_statement_example :
  swf ex_s /\ exists t, generate_stmt nat false 80 (embS nat ex_s) true Z0 = GOk (t, Z0) /\ despace2 t = spell (stoks false ex_s).
Proof. destruct statement_example as [H [t [H1 [H2 _]]]]. split; [exact H|]. exists t. split; assumption. Qed.

(* ... and labels: `{ again: if (a) in: a++;  out: ; }` *)
Example C07_label_example :
  swf ex_l /\ exists t, generate_stmt nat false 80 (embS nat ex_l) true Z0 = GOk (t, Z0) /\ despace2 t = spell (stoks false ex_l).
Proof. destruct label_example as [H [t [H1 [H2 _]]]]. split; [exact H|]. exists t. split; assumption. Qed.

(* WHOLE PROGRAMS, parser side, on parse_tokens itself (proofs/FuncTrip.v): a sequence of function definitions `T f ( ) { ... }` over the
   statement language with declarations; the tokens of the program followed by the end of the input are parsed, from the initial state
   of parse(), to exactly the FileAST the program stands for ([prog_emb]: one FuncDef per definition, Decl > FuncDecl > TypeDecl >
   IdentifierType, no parameter list, the body a Compound), every token consumed, at most three next() calls per token.
   (Generator side of FuncDef / FileAST: [C07_program_roundtrip] below.) *)
From PV Require FuncTrip.
Theorem C07_parse_of_generated_program : forall (P: Type) rp (p: list FuncTrip.fdef), Forall FuncTrip.fwf p ->
  forall items le eof file, Spell P le (FuncTrip.prog_toks rp p) -> UpR P [[]] items le -> List.length items = List.length le ->
  exists f0 N s', (forall fu, (f0 <= fu)%nat -> parse_tokens P fu (init_pstate P items eof file) = Ok (N, s')) /\
    strip N = FuncTrip.prog_emb rp p /\ ParserBase.idx P s' = List.length le /\ (N.to_nat (ParserBase.ticks P s') <= 3 * List.length le)%nat.
Proof. exact FuncTrip.parse_of_generated_program. Qed.
Print Assumptions C07_parse_of_generated_program.

(* non-vacuity: `int main ( ) { int x = 1 ; unsigned long y ; y = x + 2 ; { char c = ( x , y ) ; } return y ; } void g ( ) { }` meets the
   hypotheses, and the model's parse_tokens, evaluated in the kernel, returns prog_emb of it after 40 tokens *)
Example C07_program_example :
  Forall FuncTrip.fwf FuncTrip.ex_prog /\ Spell nat FuncTrip.ex_prog_toks (FuncTrip.prog_toks false FuncTrip.ex_prog) /\
  UpR nat [[]] FuncTrip.ex_prog_items FuncTrip.ex_prog_toks /\ List.length FuncTrip.ex_prog_items = List.length FuncTrip.ex_prog_toks /\
  match parse_tokens nat 200 (init_pstate nat FuncTrip.ex_prog_items 0 0) with
  | Ok (N, s') => strip N = FuncTrip.prog_emb false FuncTrip.ex_prog /\ ParserBase.idx nat s' = List.length FuncTrip.ex_prog_toks /\
                  (N.to_nat (ParserBase.ticks nat s') <= 3 * List.length FuncTrip.ex_prog_toks)%nat
  | _ => False
  end.
Proof. exact FuncTrip.program_example. Qed.

(* ... and BOTH SIDES for whole programs, on the same tree (proofs/GenProg.v): the generator model - visit_FileAST, visit_FuncDef, visit_Decl /
   _generate_decl / _generate_type with the FuncDecl modifier, visit_Compound at indentation 0 - prints [ptextP rp p] from [prog_emb rp p];
   that text with blanks and newlines removed is the concatenation of the spellings of [prog_toks rp p]; and the parser model's parse_tokens
   turns these tokens, followed by the end of the input, back into [prog_emb rp p].  parse . generate = id, token level, whole programs. *)
From PV Require GenProg.
Theorem C07_program_roundtrip : forall (P: Type) rp (p: list FuncTrip.fdef), p <> [] -> Forall FuncTrip.fwf p -> Forall (GenProg.fgen_ok) p -> Forall (GenProg.ftok_ok rp) p ->
  (forall fuel, (list_sum (map GenProg.fcost p) + 2 <= fuel)%nat -> visit unit rp fuel (FuncTrip.prog_emb rp p) Z0 = GOk (GenProg.ptextP rp p, Z0)) /\
  despace2 (GenProg.ptextP rp p) = spell (FuncTrip.prog_toks rp p) /\
  (forall items le eof file, Spell P le (FuncTrip.prog_toks rp p) -> UpR P [[]] items le -> List.length items = List.length le ->
   exists f0 N s', (forall fu, (f0 <= fu)%nat -> parse_tokens P fu (init_pstate P items eof file) = Ok (N, s')) /\ strip N = FuncTrip.prog_emb rp p).
Proof. exact GenProg.program_roundtrip. Qed.
Print Assumptions C07_program_roundtrip.

(* parser side for translation units that mix file-scope object declarations and function definitions (FuncTrip.parse_of_generated_unit):
   one Decl / FuncDef per external declaration, in source order; through the last branch of p_external_declaration (declarator, `=`,
   p_initializer, p_init_declarator_list with the first declarator already parsed, _build_declarations, `;`) *)
Theorem C07_parse_of_generated_unit : forall (P: Type) rp (u: list FuncTrip.edecl), Forall FuncTrip.ewf u ->
  forall items le eof file, Spell P le (FuncTrip.unit_toks rp u) -> UpR P [[]] items le -> List.length items = List.length le ->
  exists f0 N s', (forall fu, (f0 <= fu)%nat -> parse_tokens P fu (init_pstate P items eof file) = Ok (N, s')) /\
    strip N = FuncTrip.unit_emb rp u /\ ParserBase.idx P s' = List.length le /\ (N.to_nat (ParserBase.ticks P s') <= 3 * List.length le)%nat.
Proof. exact FuncTrip.parse_of_generated_unit. Qed.
Print Assumptions C07_parse_of_generated_unit.

(* non-vacuity: `int counter = 0; unsigned long limit; int next() { counter = counter + 1; return counter; } char flag = (counter, 1); void g() { }` *)
Example C07_unit_example :
  Forall FuncTrip.ewf FuncTrip.ex_unit /\ Spell nat FuncTrip.ex_unit_toks (FuncTrip.unit_toks false FuncTrip.ex_unit) /\
  UpR nat [[]] FuncTrip.ex_unit_items FuncTrip.ex_unit_toks /\ List.length FuncTrip.ex_unit_items = List.length FuncTrip.ex_unit_toks /\
  match parse_tokens nat 200 (init_pstate nat FuncTrip.ex_unit_items 0 0) with
  | Ok (N, s') => strip N = FuncTrip.unit_emb false FuncTrip.ex_unit /\ ParserBase.idx nat s' = List.length FuncTrip.ex_unit_toks /\
                  (N.to_nat (ParserBase.ticks nat s') <= 3 * List.length FuncTrip.ex_unit_toks)%nat
  | _ => False
  end.
Proof. exact FuncTrip.unit_example. Qed.

(* BOTH SIDES for translation units that mix object declarations and function definitions (GenProg.unit_roundtrip): visit_FileAST adds
   `;` and a newline after a Decl, nothing after a FuncDef; the text is the concatenation of the unit's tokens; parse_tokens turns them back. *)
Theorem C07_unit_roundtrip : forall (P: Type) rp (u: list FuncTrip.edecl), Forall FuncTrip.ewf u -> Forall GenProg.egen_ok u -> Forall (GenProg.etok_ok rp) u ->
  (forall fuel, (list_sum (map GenProg.ecost u) + 2 <= fuel)%nat -> visit unit rp fuel (FuncTrip.unit_emb rp u) Z0 = GOk (GenProg.utext rp u, Z0)) /\
  despace2 (GenProg.utext rp u) = spell (FuncTrip.unit_toks rp u) /\
  (forall items le eof file, Spell P le (FuncTrip.unit_toks rp u) -> UpR P [[]] items le -> List.length items = List.length le ->
   exists f0 N s', (forall fu, (f0 <= fu)%nat -> parse_tokens P fu (init_pstate P items eof file) = Ok (N, s')) /\ strip N = FuncTrip.unit_emb rp u).
Proof. exact GenProg.unit_roundtrip. Qed.
Print Assumptions C07_unit_roundtrip.
