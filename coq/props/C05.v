(* C05 - statement ASTs mirror C's statement nesting and source order
   Property theorems only. The single-input statements below are checked by the kernel on the whole-pipeline model
   (lexer -> token stream -> parser -> transforms), proofs in proofs/StmtExamples.v; the others restate theorems of the proof files (named in the proof under each). *)
From Coq Require Import List NArith Bool Arith.
Import ListNotations.
From PV Require Import Regex Base LexTables NodeModel ParserBase ParserDecl ParserMain Api StmtExamples AstSpec StmtProofs ElseProofs StmtShape ParserBase ParserMain StreamLib RoundTrip RoundTripX StmtTrip.

(* the else belongs to the nearest unmatched if (C99 6.8.4.1p3) *)
Theorem C05_dangling_else :
  outcome_str (s2l "void f(){ if (a) if (b) x; else y; }") = s2l "OK|(FileAST [(FuncDef (Decl 'f' [] [] [] [] (FuncDecl None (TypeDecl 'f' [] None (IdentifierType ['void']))) None None) None (Compound [(If (ID 'a') (If (ID 'b') (ID 'x') (ID 'y')) None)]))])".
Proof. exact ex_C05_dangling_else. Qed.
Print Assumptions C05_dangling_else.

(* statements go under the nearest preceding label; consecutive labels stay siblings *)
Theorem C05_switch_regroup :
  outcome_str (s2l "void f(){ switch(x){ case 1: a; b; case 2: case 3: c; default: d; } }") = s2l "OK|(FileAST [(FuncDef (Decl 'f' [] [] [] [] (FuncDecl None (TypeDecl 'f' [] None (IdentifierType ['void']))) None None) None (Compound [(Switch (ID 'x') (Compound [(Case (Constant 'int' '1') [(ID 'a'),(ID 'b')]),(Case (Constant 'int' '2') []),(Case (Constant 'int' '3') [(ID 'c')]),(Default [(ID 'd')])]))]))])".
Proof. exact ex_C05_switch_regroup. Qed.
Print Assumptions C05_switch_regroup.

(* a declaration init lands in a DeclList *)
Theorem C05_for_decl :
  outcome_str (s2l "void f(){ for(int i=0;i<3;i++) x; }") = s2l "OK|(FileAST [(FuncDef (Decl 'f' [] [] [] [] (FuncDecl None (TypeDecl 'f' [] None (IdentifierType ['void']))) None None) None (Compound [(For (DeclList [(Decl 'i' [] [] [] [] (TypeDecl 'i' [] None (IdentifierType ['int'])) (Constant 'int' '0') None)]) (BinaryOp '<' (ID 'i') (Constant 'int' '3')) (UnaryOp 'p++' (ID 'i')) (ID 'x'))]))])".
Proof. exact ex_C05_for_decl. Qed.
Print Assumptions C05_for_decl.

(* each pragma once, verbatim, in place; a pragma-prefixed sub-statement is wrapped in a Compound *)
Theorem C05_pragma_once :
  outcome_str (s2l "void f(){
#pragma p1
 x;
 if (a)
#pragma p2
 y;
}") = s2l "OK|(FileAST [(FuncDef (Decl 'f' [] [] [] [] (FuncDecl None (TypeDecl 'f' [] None (IdentifierType ['void']))) None None) None (Compound [(Pragma 'p1'),(ID 'x'),(If (ID 'a') (Compound [(Pragma 'p2'),(ID 'y')]) None)]))])".
Proof. exact ex_C05_pragma_once. Qed.
Print Assumptions C05_pragma_once.

(* a static assertion as a sub-statement is one node, like any statement (was a Python list before the fix) *)
Theorem C05_static_assert_stmt :
  outcome_str (s2l "void f(){ if (x) _Static_assert(1,""a""); }") = s2l "OK|(FileAST [(FuncDef (Decl 'f' [] [] [] [] (FuncDecl None (TypeDecl 'f' [] None (IdentifierType ['void']))) None None) None (Compound [(If (ID 'x') (StaticAssert (Constant 'int' '1') (Constant 'string' '""a""')) None),(EmptyStatement)]))])".
Proof. exact ex_C05_static_assert_stmt. Qed.
Print Assumptions C05_static_assert_stmt.

(* fix_switch_cases: for a switch body of ANY length whose label chains have ANY depth, the regrouped
   body is exactly: statements under the nearest preceding label, consecutive labels as siblings,
   statements before the first label in front (regroup_spec) - nothing lost, duplicated or reordered *)
Theorem C05_switch_regroup_correct : forall (P: Type) cs items cur fuel st,
  Forall (child_ok P) cs -> Forall (fun c => (child_depth P c < fuel)%nat) cs ->
  switch_regroup P fuel (map (child_node P) cs) (fst (state_of P items cur)) (snd (state_of P items cur)) st
  = Ok (regroup_spec P cs items cur, st).
Proof. exact switch_regroup_correct. Qed.
Print Assumptions C05_switch_regroup_correct.

(* an else belongs to the nearest if, on the whole-parser model, for every token stream, state and fuel:
   the if-production tries `else` immediately after its then-statement; when it does not take one, the
   token following the finished If node is not `else` (so no else is ever left for an enclosing if) *)
Theorem C05_else_binds_to_nearest_if : forall (P: Type) f s r s' t s0,
  p_selection_statement P (S f) s = Ok (r, s') ->
  advance P s = Ok (t, s0) -> kind_eqb (tk t) K_IF = true ->
  exists cond th sa el sb co,
    accept P K_ELSE sa = Ok (el, sb) /\
    match el with
    | Some e => kind_eqb (tk e) K_ELSE = true /\ exists es, r = mkN P C_If [cond; th; es] co
    | None => r = mkN P C_If [cond; th; VNone] co /\ s' = sb /\
              forall t1 s1, peek P s' = Ok (Some t1, s1) -> kind_eqb (tk t1) K_ELSE = false
    end.
Proof. exact else_binds_to_nearest_if. Qed.
Print Assumptions C05_else_binds_to_nearest_if.

(* loop bodies are the single following statement: whatever while / do / for returns has as its body exactly one
   value returned by a run of the statement production (stmt_here), for every token stream, state and fuel *)
Theorem C05_loop_body_is_one_statement : forall (P: Type) f,
  post P (fun r => exists st c, stmt_here P f st /\
          ((exists cond, r = mkN P C_While [cond; st] c) \/ (exists cond, r = mkN P C_DoWhile [cond; st] c) \/
           (exists init cond nx, r = mkN P C_For [init; cond; nx; st] c)))
       (p_iteration_statement P (S f)).
Proof. exact loop_body_is_one_statement. Qed.
Print Assumptions C05_loop_body_is_one_statement.

(* a label, `case e:` or `default:` attaches to the ONE statement that follows (an EmptyStatement when none can start there) *)
Theorem C05_label_attaches_to_next_statement : forall (P: Type) f,
  post P (fun r => exists st c, label_body P f st /\
          ((exists name, r = mkN P C_Label [VStr name; st] c) \/ (exists e, r = mkN P C_Case [e; VList [st]] c) \/
           r = mkN P C_Default [VList [st]] c))
       (p_labeled_statement P (S f)).
Proof. exact label_attaches_to_next_statement. Qed.
Print Assumptions C05_label_attaches_to_next_statement.

(* COMPLETENESS at token level (proofs/StmtTrip.v): every statement x built from expression statements, `;`, return /
   break / continue / goto, labelled statements (`name: statement`, the label attaches to the ONE statement after it), if with and without else, while, do-while, for with any of its clauses absent and
   brace-enclosed blocks, nested in any way - written as the token sequence [stoks rp x], is parsed by p_pragmacomp_or_statement (the production behind every
   sub-statement position) to exactly x: each `else` goes to the nearest if that can take it, loop bodies and branches are
   exactly one statement, nothing is lost or reordered.  Side conditions = C's dangling-else rule (swf, and no `else` after
   an if without else). *)
Theorem C05_statements_parse_back : forall (P: Type) rp (x: StmtTrip.st), StmtTrip.swf x ->
  forall (s: ParserBase.pstate P) le stop l0, RoundTrip.Spell P le (StmtTrip.stoks rp x) -> StreamLib.Up P s (le ++ stop :: l0) ->
  (StmtTrip.sopen x = true -> kind_eqb (ParserBase.tk stop) K_ELSE = false) ->
  exists f0 N s', (forall f, (f0 <= f)%nat -> ParserMain.p_pragmacomp_or_statement P f s = ParserBase.Ok (N, s')) /\
                  StreamLib.Up P s' (stop :: l0) /\ RoundTrip.strip N = StmtTrip.embs x.
Proof. exact StmtTrip.parse_of_generated_statement. Qed.
Print Assumptions C05_statements_parse_back.

(* "declarations and statements of a block appear in source order": the same completeness statement for statements whose
   blocks - at any depth - hold the declarations `T x;` / `T x = e;` among their items: the Compound node lists one Decl per
   declaration and one node per statement, in source order ([StmtTrip.embs]); the scope stack must hold no typedef name. *)
Theorem C05_blocks_with_declarations_parse_back : forall (P: Type) rp (x: StmtTrip.st), StmtTrip.swfD x ->
  forall (s: ParserBase.pstate P) le stop l0, RoundTrip.Spell P le (StmtTrip.stoks rp x) -> StreamLib.Up P s (le ++ stop :: l0) ->
  (StmtTrip.sopen x = true -> kind_eqb (ParserBase.tk stop) K_ELSE = false) -> StreamLib.NoTD (ParserBase.scopes P s) ->
  exists f0 N s', (forall f, (f0 <= f)%nat -> ParserMain.p_statement P f s = ParserBase.Ok (N, s')) /\
                  StreamLib.Up P s' (stop :: l0) /\ RoundTrip.strip N = StmtTrip.embs x /\ StreamLib.NoTD (ParserBase.scopes P s').
Proof. exact StmtTrip.parse_of_generated_statement_with_decls. Qed.
Print Assumptions C05_blocks_with_declarations_parse_back.
